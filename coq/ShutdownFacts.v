(** Facts about the Shutdown models: safety and termination of Close in the current code (variant 2),
    reachable deadlocks in the two earlier variants, safety and termination of the executor's Close.

    Both invariants are records of facts that each mention few fields of the state, the flags being given
    as functions of the phase of Close.  A step writes a whole record whose projections compute, so a fact
    about fields the label leaves alone is, up to conversion, the hypothesis it was before the step. *)
From Coq Require Import List Arith Bool Lia.
From FF Require Import Lts Shutdown.
Import ListNotations.

(** Inversion of [H : step s l = Some s'] once [l] is known and [step] unfolded; [s'] becomes the record
    the step writes. *)
Ltac step_inv H :=
  repeat match type of H with
         | context [match ?x with _ => _ end] => destruct x eqn:?; try discriminate H
         end;
  injection H as <-.

(** A conditional fact [P -> _] after a step, where [H : P -> Q] held before it and the guard of the step
    refutes [Q]. *)
Ltac refuted H := let E := fresh in intros E; apply H in E; (discriminate E || (destruct E; congruence)).

Arguments enter : simpl never.

Section AnyVariant.
  Variable variant cap fan : nat.
  Notation step := (pstep variant cap fan).

  Lemma cl_enter s : cl (enter variant cap s) = cl s.
  Proof. unfold enter. destruct (closed s), (q s <? cap), (variant =? 2); reflexivity. Qed.

  Lemma enter_closed s : closed s = true -> enter variant cap s = s.
  Proof. unfold enter. intros ->. reflexivity. Qed.

  Lemma pstep_phase s l s' : step s l = Some s' -> phw (cl s') <= phw (cl s).
  Proof.
    intros HS. destruct l; cbn in HS; step_inv HS; rewrite ?cl_enter; cbn; auto.
  Qed.

  Lemma ret_stays s l s' : cl s = CRet -> step s l = Some s' -> cl s' = CRet.
  Proof. intros HC HS. apply pstep_phase in HS. rewrite HC in HS. destruct (cl s'); cbn in HS; (reflexivity || lia). Qed.

  Lemma closing_ends s l s' : closing s = true -> step s l = Some s' -> closing s' = false -> cl s' = CRet.
  Proof.
    unfold closing. intros HC HS HC'. apply pstep_phase in HS.
    destruct (cl s); try discriminate HC; destruct (cl s'); try discriminate HC'; cbn in HS; (reflexivity || lia).
  Qed.

  Lemma take_any_take0 s k s' : step s (WTake k) = Some s' -> exists s0, step s (WTake 0) = Some s0.
  Proof.
    cbn. destruct (wk s); try discriminate. destruct (q s); try discriminate.
    destruct (k <=? fan); try discriminate. intros _. eexists; reflexivity.
  Qed.

  Lemma enabled_complete s l s' : internal l = true -> step s l = Some s' -> enabled variant cap fan s = true.
  Proof.
    intros HL HS. destruct l; try discriminate HL.
    2: (* [WTake k] *) apply take_any_take0 in HS as (s0 & HS).
    all: refine (enabled_in_intro step candidates s _ _ _ HS); unfold candidates; auto 13 using in_eq, in_cons.
  Qed.

  Definition with_ext (s : pst) (e : nat) : pst :=
    {| rd := rd s; wr := wr s; ww := ww s; closed := closed s; qclosed := qclosed s; q := q s; bs := bs s;
       bw := bw s; wk := wk s; cl := cl s; ext := e; panicked := panicked s |}.

  Lemma with_ext_same s : with_ext s (ext s) = s.
  Proof. destruct s; reflexivity. Qed.

  (** Stuck however many calls have not entered yet.  Such a state stays so: no internal step is enabled, Close
      has been called already, and a call that arrives changes [ext] only. *)
  Definition dead (s : pst) : Prop := forall e, stuck variant cap fan (with_ext s e) = true.

  Lemma dead_stuck s : dead s -> closing s = true /\ enabled variant cap fan s = false.
  Proof.
    intros H. specialize (H (ext s)). rewrite with_ext_same in H. apply andb_true_iff in H as [HC HE].
    apply negb_true_iff in HE. auto.
  Qed.

  Lemma dead_forever s l s' : dead s -> step s l = Some s' -> dead s'.
  Proof.
    intros HD HS. destruct (dead_stuck s HD) as [HC HE]. destruct (internal l) eqn:HI.
    - rewrite (enabled_complete s l s' HI HS) in HE. discriminate.
    - destruct l; try discriminate HI; cbn in HS.
      + injection HS as <-. exact HD.
      + unfold closing in HC. destruct (cl s); discriminate.
  Qed.

  Theorem dead_never_returns s ls s' : dead s -> prun variant cap fan s ls = Some s' -> cl s' <> CRet.
  Proof.
    intros HD HR E. destruct (dead_stuck s' (run_inv step dead dead_forever ls s s' HD HR)) as [HC _].
    unfold closing in HC. rewrite E in HC. discriminate.
  Qed.
End AnyVariant.

Section V2.
  Variable cap fan : nat.
  Notation step := (pstep 2 cap fan).
  Notation run := (prun 2 cap fan).

  Definition PInv (s : pst) : Prop :=
    wr s = false /\ rd s = 0 /\ bw s = 0 /\ panicked s = false /\ q s <= cap /\
    match cl s with
    | CNot => ww s = false /\ closed s = false /\ qclosed s = false /\ wk s <> WExited
    | CWantLock => ww s = true /\ closed s = false /\ qclosed s = false /\ wk s <> WExited
    | CWaitSenders => ww s = false /\ closed s = true /\ qclosed s = false /\ wk s <> WExited
    | CWaitWorkers => ww s = false /\ closed s = true /\ qclosed s = true /\ bs s = 0 /\ (wk s = WExited -> q s = 0)
    | CRet => ww s = false /\ closed s = true /\ qclosed s = true /\ bs s = 0 /\ wk s = WExited /\ q s = 0
    end.

  (** [PInv] in the form the proofs use; [PInv] itself is what [parser_return_after_workers] is stated about *)
  Record PI (s : pst) : Prop := {
    pi_wr : wr s = false;
    pi_rd : rd s = 0;
    pi_bw : bw s = 0;
    pi_panicked : panicked s = false;
    pi_q : q s <= cap;
    pi_ww : ww s = match cl s with CWantLock => true | _ => false end;
    pi_closed : closed s = match cl s with CNot | CWantLock => false | _ => true end;
    pi_qclosed : qclosed s = match cl s with CWaitWorkers | CRet => true | _ => false end;
    pi_bs : qclosed s = true -> bs s = 0;
    pi_exited : wk s = WExited -> qclosed s = true /\ q s = 0;
    pi_ret : cl s = CRet -> wk s = WExited
  }.

  Lemma pinv_iff s : PInv s <-> PI s.
  Proof.
    unfold PInv. split.
    - intros (? & ? & ? & ? & ? & H). destruct (cl s) eqn:C; decompose [and] H; constructor; rewrite ?C; auto; congruence.
    - intros HI. pose proof (pi_exited s HI) as X. destruct HI. repeat (split; [assumption|]).
      destruct (cl s); repeat split; auto; try congruence; try refuted X.
      apply X; auto.
  Qed.

  Lemma pi_init : PI pinit.
  Proof. constructor; cbn; (reflexivity || lia || discriminate). Qed.

  Lemma pi_open s : PI s -> closed s = false -> qclosed s = false.
  Proof. intros [] C. destruct (cl s); congruence. Qed.

  Lemma pi_closing_read s : PI s -> closing s = true -> can_read s = true -> closed s = true.
  Proof.
    unfold closing, can_read. intros HI C R. pose proof (pi_ww s HI) as W. pose proof (pi_closed s HI) as D.
    destruct (cl s); try discriminate C; trivial. rewrite W, andb_false_r in R. discriminate.
  Qed.

  Lemma pi_enter s : PI s -> PI (enter 2 cap s).
  Proof.
    intros HI. unfold enter. destruct (closed s) eqn:C; [exact HI|].
    pose proof (pi_open s HI C) as QC. pose proof (pi_exited s HI) as X. destruct HI.
    destruct (q s <? cap) eqn:Q; cbn; constructor; cbn; trivial; try congruence.
    - apply Nat.ltb_lt, Q.
    - intros W. destruct (X W). congruence.
  Qed.

  Lemma pi_step s l s' : PI s -> step s l = Some s' -> PI s'.
  Proof.
    (* [BLock] contradicts [bw s = 0]; a [BSend] to the closed queue, the only step that sets [panicked],
       contradicts [qclosed s = true -> bs s = 0] *)
    intros [Hwr Hrd Hbw Hpan Hq Hww Hcl Hqcl Hbs Hex Hret] HS.
    destruct l; cbn in HS; step_inv HS; try discriminate Hbw; try discriminate (Hbs eq_refl).
    all: try apply pi_enter; constructor; trivial; cbn; try congruence.
    (* left: the facts about a field that the label writes *)
    all: try refuted Hret; try refuted Hbs; try refuted Hex; auto.
    - lia.
    - apply Nat.ltb_lt; assumption.
  Qed.

  Lemma pi_reachable ls s : run pinit ls = Some s -> PI s.
  Proof. exact (run_inv step PI pi_step ls pinit s pi_init). Qed.

  Lemma pinv_init : PInv pinit.
  Proof. exact (proj2 (pinv_iff _) pi_init). Qed.

  Lemma pinv_step s l s' : PInv s -> step s l = Some s' -> PInv s'.
  Proof. rewrite !pinv_iff. apply pi_step. Qed.

  Lemma pi_returned s : PI s -> cl s = CRet ->
    wk s = WExited /\ q s = 0 /\ bs s = 0 /\ bw s = 0 /\ rd s = 0 /\ wr s = false.
  Proof.
    intros HI HC. pose proof (pi_ret s HI HC) as W. destruct (pi_exited s HI W) as (Q & N).
    repeat split; trivial; apply HI; trivial.
  Qed.

  Lemma parser_returned_for_good ls s s' : PI s -> cl s = CRet -> run s ls = Some s' -> PI s' /\ cl s' = CRet.
  Proof.
    intros HI HC. apply (run_inv step (fun x => PI x /\ cl x = CRet)); [|auto].
    intros x l x' (HIx & HCx) HS. exact (conj (pi_step x l x' HIx HS) (ret_stays 2 cap fan x l x' HCx HS)).
  Qed.

  Theorem parser_return_after_workers s s' : PInv s -> step s CReturn = Some s' -> wk s = WExited /\ q s = 0 /\ bs s = 0.
  Proof.
    intros HI HS. apply pinv_iff in HI. cbn in HS. step_inv HS.
    destruct (pi_exited s HI) as (Q & ->); [assumption|]. rewrite (pi_bs s HI Q). auto.
  Qed.

  Theorem parser_progress s : PI s -> closing s = true -> enabled 2 cap fan s = true.
  Proof.
    intros HI HC. pose proof (fun l s' => enabled_complete 2 cap fan s l s') as En.
    unfold closing in HC. pose proof (pi_ww s HI) as W. pose proof (pi_closed s HI) as C. pose proof (pi_qclosed s HI) as Q.
    destruct (cl s) eqn:E; try discriminate HC.
    - (* CWantLock: nobody holds either lock *)
      eapply (En CLock _ eq_refl). cbn. rewrite E, (pi_rd s HI), (pi_wr s HI). reflexivity.
    - (* CWaitSenders: a sender gives up on closeCh, or none is left *)
      destruct (bs s) eqn:B.
      + eapply (En CSendersGone _ eq_refl). cbn. rewrite E, B. reflexivity.
      + eapply (En BAbort _ eq_refl). cbn. rewrite B, C. reflexivity.
    - (* CWaitWorkers: the worker drains the closed queue and exits; its entries take the read lock *)
      destruct (wk s) as [|[|k]|k|] eqn:K.
      + destruct (q s) eqn:N.
        * eapply (En WExit _ eq_refl). cbn. rewrite K, N, Q. reflexivity.
        * eapply (En (WTake 0) _ eq_refl). cbn. rewrite K, N. reflexivity.
      + eapply (En WDone _ eq_refl). cbn. rewrite K. reflexivity.
      + eapply (En WNeed _ eq_refl). cbn. rewrite K. reflexivity.
      + eapply (En WEnter _ eq_refl). cbn. unfold can_read. rewrite K, W, (pi_wr s HI). reflexivity.
      + eapply (En CReturn _ eq_refl). cbn. rewrite E, K. reflexivity.
  Qed.

  Theorem parser_decrease s l s' :
    PI s -> closing s = true -> internal l = true -> step s l = Some s' -> measure fan s' < measure fan s.
  Proof.
    (* The weights: [wkw] counts the steps the worker still takes by itself, two for each entry ([WNeed], [WEnter]),
       then [WDone] and [WExit]; a queued event outweighs the [WProc k], [k <= fan], that it makes of the idle
       worker; a blocked sender outweighs the queued event it becomes.
       The measure of [s] is unfolded before the case analysis, which rewrites in it, that of [s'] after it. *)
    intros HI HC HL HS. unfold measure at 2. destruct l; try discriminate HL; cbn in HS; step_inv HS.
    (* a call that enters now finds closeCh closed and adds nothing *)
    all: rewrite ?enter_closed by (cbn; eapply pi_closing_read; eassumption).
    all: unfold measure; cbn [cl bs q wk ext phw wkw set_wk]; try lia.
    - (* WTake *) assert (k <= fan) by (apply Nat.leb_le; assumption). lia.
    - (* BLock: nobody waits for the read lock in the current code *) pose proof (pi_bw s HI). congruence.
    - pose proof (pi_bw s HI). congruence.
  Qed.

  Fixpoint crun (s : pst) (ls : list plabel) : option pst :=
    match ls with
    | [] => Some s
    | l :: t => if closing s && internal l
                then match step s l with Some s1 => crun s1 t | None => None end
                else None
    end.

  Theorem parser_runs_bounded ls s s' : PI s -> crun s ls = Some s' -> length ls <= measure fan s.
  Proof. exact (active_run_bounded step PI closing internal (measure fan) pi_step parser_decrease ls s s'). Qed.

  Theorem parser_close_returns n s : PI s -> closing s = true -> measure fan s <= n ->
    exists ls s', Forall (fun l => internal l = true) ls /\ run s ls = Some s' /\ cl s' = CRet /\ length ls <= n.
  Proof.
    exact (active_reaches_final step PI closing internal (measure fan) candidates (fun s => cl s = CRet)
             pi_step parser_progress eq_refl parser_decrease (closing_ends 2 cap fan) n s).
  Qed.
End V2.

(** the pinned code: Close holds the write lock while it waits for a worker that has to enter a task again *)
Definition witness0 : list plabel := [ExtArrive; ExtEnter; WTake 1; CCall; CLock; WNeed].
(** after fix 57f3a0c: the queue (capacity 50) is full, a sender waits for room holding the read lock,
    Close waits for the write lock, the worker that should drain the queue waits for the read lock *)
Definition witness1 : list plabel :=
  [ExtArrive; ExtEnter; WTake 52] ++ concat (repeat [WNeed; WEnter] 51) ++ [BLock; CCall; WNeed].

Theorem pinned_parser_close_deadlocks : exists s, prun 0 50 60 pinit witness0 = Some s /\ dead 0 50 60 s.
Proof.
  (* [stuck] asks of [ext] only whether it is 0, in the guard of [ExtEnter] *)
  eexists. split; [vm_compute; reflexivity|]. intros [|e]; reflexivity.
Qed.

Theorem full_queue_parser_close_deadlocks :
  exists s, prun 1 50 60 pinit witness1 = Some s /\ dead 1 50 60 s /\ q s = 50.
Proof. eexists. split; [vm_compute; reflexivity|]. split; [intros [|e]|]; reflexivity. Qed.

(** the corresponding schedule of the current code (the sender that waits for room holds no lock) is not stuck *)
Definition witness2 : list plabel :=
  [ExtArrive; ExtEnter; WTake 52] ++ concat (repeat [WNeed; WEnter] 51) ++ [CCall; WNeed].
Example witness2_current :
  exists s, prun 2 50 60 pinit witness2 = Some s /\ bs s = 1 /\ q s = 50 /\ closing s = true /\ stuck 2 50 60 s = false.
Proof. eexists. split; [vm_compute; reflexivity|]. repeat split; vm_compute; reflexivity. Qed.

Lemma estep_phase s l s' : estep s l = Some s' -> ephw (e_cl s') <= ephw (e_cl s).
Proof. intros HS. destruct l; cbn in HS; step_inv HS; cbn; auto. Qed.

Lemma eret_stays s l s' : e_cl s = ERet -> estep s l = Some s' -> e_cl s' = ERet.
Proof. intros HC HS. apply estep_phase in HS. rewrite HC in HS. destruct (e_cl s'); cbn in HS; (reflexivity || lia). Qed.

Lemma eclosing_ends s l s' : eclosing s = true -> estep s l = Some s' -> eclosing s' = false -> e_cl s' = ERet.
Proof.
  unfold eclosing. intros HC HS HC'. apply estep_phase in HS.
  destruct (e_cl s); try discriminate HC; destruct (e_cl s'); try discriminate HC'; cbn in HS; (reflexivity || lia).
Qed.

Section E.
  Variable workers : nat.

  Record EInv (s : est) : Prop := {
    ei_wr : e_wr s = match e_cl s with EWaitInit | EWaitWorkers => true | _ => false end;
    ei_ww : e_ww s = match e_cl s with EWantLock => true | _ => false end;
    ei_closed : e_closed s = match e_cl s with ENot | EWantLock => false | _ => true end;
    ei_wq : e_wqclosed s = match e_cl s with EWaitWorkers | ERet => true | _ => false end;
    ei_iq : e_iqclosed s = e_closed s;
    ei_started : e_started s = e_stored s + e_run s;
    ei_panicked : e_panicked s = false;
    ei_workers : e_idle s + e_run s + e_gone s = workers;
    ei_hold : e_closed s = true -> e_hold s = 0;
    ei_exited : e_init s = IExited -> e_iqclosed s = true;
    ei_init : e_wqclosed s = true -> e_init s = IExited;
    ei_gone : e_wqclosed s = false -> e_gone s = 0;
    ei_ret : e_cl s = ERet -> e_idle s = 0 /\ e_run s = 0
  }.

  Lemma einv_init : EInv (einit workers).
  Proof. constructor; cbn; (reflexivity || lia || discriminate). Qed.

  Lemma einv_step s l s' : EInv s -> estep s l = Some s' -> EInv s'.
  Proof.
    intros [Hwr Hww Hcl Hwq Hiq Hst Hpan Hwk Hhold Hex Hinit Hgone Hret] HS.
    destruct l; cbn in HS; step_inv HS; constructor; trivial; cbn; try congruence.
    (* left: the facts about a field that the label writes *)
    all: try refuted Hhold; try refuted Hinit; try refuted Hret; try lia.
    - (* InitRecv: a Push holds the read lock, so nothing is closed yet *)
      rewrite Hpan, Hiq. destruct (e_closed s); [discriminate Hhold|]; reflexivity.
    - (* InitHandoff: watchInitQueue has not exited, so the worker queue is open *)
      rewrite Hpan. destruct (e_wqclosed s); [discriminate Hinit|]; reflexivity.
  Qed.

  Lemma einv_reachable ls s : erun (einit workers) ls = Some s -> EInv s.
  Proof. exact (run_inv estep EInv einv_step ls _ s einv_init). Qed.

  Lemma einv_returned s : EInv s -> e_cl s = ERet ->
    e_started s = e_stored s /\ e_run s = 0 /\ e_idle s = 0 /\ e_gone s = workers /\ e_init s = IExited.
  Proof.
    intros HI HC. destruct (ei_ret s HI HC) as (Id & R). pose proof (ei_wq s HI) as Q. rewrite HC in Q.
    pose proof (ei_started s HI). pose proof (ei_workers s HI). pose proof (ei_init s HI Q). repeat split; (assumption || lia).
  Qed.

  Lemma eret_started s l s' : EInv s -> e_cl s = ERet -> estep s l = Some s' -> e_started s' = e_started s.
  Proof.
    intros HI HC HS. destruct l; cbn in HS; step_inv HS; trivial.
    (* InitHandoff: watchInitQueue has exited *)
    pose proof (ei_wq s HI) as Q. rewrite HC in Q. pose proof (ei_init s HI Q). congruence.
  Qed.

  Lemma executor_returned_for_good ls s s' : EInv s -> e_cl s = ERet -> erun s ls = Some s' ->
    EInv s' /\ e_cl s' = ERet /\ e_started s' = e_started s.
  Proof.
    intros HI HC. apply (run_inv estep (fun x => EInv x /\ e_cl x = ERet /\ e_started x = e_started s)); [|auto].
    intros x l x' (HIx & HCx & HSx) HS. rewrite <- HSx.
    exact (conj (einv_step x l x' HIx HS) (conj (eret_stays x l x' HCx HS) (eret_started x l x' HIx HCx HS))).
  Qed.

  Theorem executor_progress s : 0 < workers -> EInv s -> eclosing s = true -> eenabled s = true.
  Proof.
    intros HW HI HC.
    pose proof (enabled_in_intro estep ecandidates s) as En.
    (* no worker has left yet, so one ends its run or takes the payload *)
    assert (Wk : e_wqclosed s = false -> e_init s = IHas -> eenabled s = true).
    { intros Q I. pose proof (ei_gone s HI Q). pose proof (ei_workers s HI). destruct (e_idle s) eqn:Id.
      - destruct (e_run s) eqn:R; [lia|]. eapply (En RunEnd); [cbn; auto 10|]. cbn. rewrite R. reflexivity.
      - eapply (En InitHandoff); [cbn; auto 10|]. cbn. rewrite I, Id. reflexivity. }
    unfold eclosing in HC. pose proof (ei_wr s HI) as W. pose proof (ei_wq s HI) as Q. pose proof (ei_closed s HI) as C.
    destruct (e_cl s) eqn:E; try discriminate HC.
    - (* EWantLock: Close takes the lock once the Push calls that hold it have been received *)
      destruct (e_hold s) eqn:H.
      + eapply (En ELock); [cbn; auto 10|]. cbn. rewrite E, H, W. reflexivity.
      + destruct (e_init s) eqn:I; [|auto|].
        * eapply (En InitRecv); [cbn; auto 10|]. cbn. rewrite H, I. reflexivity.
        * pose proof (ei_exited s HI I). pose proof (ei_iq s HI). congruence.
    - (* EWaitInit: watchInitQueue finds its queue closed and exits *)
      destruct (e_init s) eqn:I; [|auto|].
      + eapply (En InitExit); [cbn; auto 10|]. cbn. rewrite I, (ei_iq s HI), C. reflexivity.
      + eapply (En EInitGone); [cbn; auto 10|]. cbn. rewrite E, I. reflexivity.
    - (* EWaitWorkers *)
      destruct (e_idle s) eqn:Id; [destruct (e_run s) eqn:R|].
      + eapply (En EReturn); [cbn; auto 10|]. cbn. rewrite E, Id, R. reflexivity.
      + eapply (En RunEnd); [cbn; auto 10|]. cbn. rewrite R. reflexivity.
      + eapply (En WorkerExit); [cbn; auto 10|]. cbn. rewrite Id, Q. reflexivity.
  Qed.

  Theorem executor_decrease s l s' :
    EInv s -> eclosing s = true -> einternal l = true -> estep s l = Some s' -> emeasure s' < emeasure s.
  Proof.
    (* the weights follow a payload: 3 in a Push that holds the lock, 2 in watchInitQueue's hand ([IHas] over
       [IIdle]), 1 in a worker (running over idle); the idle worker's 1 is for [WorkerExit] *)
    intros HI HC HL HS. unfold emeasure at 2. destruct l; try discriminate HL; cbn in HS; step_inv HS.
    all: unfold emeasure; cbn [e_cl e_hold e_init e_run e_idle e_want ephw iw]; try lia.
    (* PushLock: the lock is only to be had after ELock, and then closeCh is closed *)
    pose proof (ei_ww s HI) as W. pose proof (ei_closed s HI) as C. unfold eclosing in HC.
    destruct (e_cl s); try discriminate HC; try congruence. rewrite W, andb_false_r in *. discriminate.
  Qed.

  Fixpoint ecrun (s : est) (ls : list elabel) : option est :=
    match ls with
    | [] => Some s
    | l :: t => if eclosing s && einternal l
                then match estep s l with Some s1 => ecrun s1 t | None => None end
                else None
    end.

  Theorem executor_runs_bounded ls s s' : EInv s -> ecrun s ls = Some s' -> length ls <= emeasure s.
  Proof. exact (active_run_bounded estep EInv eclosing einternal emeasure einv_step executor_decrease ls s s'). Qed.

  Theorem executor_close_returns n s : 0 < workers -> EInv s -> eclosing s = true -> emeasure s <= n ->
    exists ls s', Forall (fun l => einternal l = true) ls /\ erun s ls = Some s' /\ e_cl s' = ERet /\ length ls <= n.
  Proof.
    intros HW.
    exact (active_reaches_final estep EInv eclosing einternal emeasure ecandidates (fun s => e_cl s = ERet)
             einv_step (fun s => executor_progress s HW) eq_refl executor_decrease eclosing_ends n s).
  Qed.
End E.
