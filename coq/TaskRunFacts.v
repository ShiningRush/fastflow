(** What the state of TaskRun's acceptor tells about the stream it has read: every program counter but [Idle] and
    [NeedFail] is entered by one event only (C02, C04, C15). *)
From Coq Require Import List ZArith Bool Arith Lia.
From FF Require Import Sx StoreModel StoreCheck TaskRun.
Import ListNotations.
Local Open Scope Z_scope.

Lemma run_acc_app p a b :
  run_acc p (a ++ b) = match run_acc p a with Some q => run_acc q b | None => None end.
Proof.
  revert p; induction a as [|e a IH]; intros p; simpl; [reflexivity|].
  destruct (acc_step p e); [apply IH|reflexivity].
Qed.

Definition not_tx (e : tev) : bool := match e with TX => false | _ => true end.

Lemma step_tx p : acc_step p TX = Some p.
Proof. destruct p; reflexivity. Qed.

Definition entry (q : pc) (e : tev) : Prop :=
  match q with
  | InBefore => e = TS 0 | InRun => e = TS 1 | InAfter => e = TS 2 | InRetry => e = TS 3
  | NeedRunning => e = TE 0 0 | NeedEnding => e = TE 1 0 | NeedSuccess => e = TE 2 0 | NeedInit => e = TE 3 0
  | NeedRunStart => exists r, e = TP 2 r true
  | NeedAfterOrSuccess => exists r, e = TP 3 r true
  | Idle | NeedFail => True
  end.

(* [p] and the numerals are taken apart before [acc_step] is reduced: no case analysis is made
   under its unfolded body, and a program counter that refuses the kind of event goes at once. *)
Lemma into p e q : acc_step p e = Some q -> (e = TX /\ p = q) \/ entry q e.
Proof.
  destruct e as [ph|ph o|st r ok| |].
  - destruct p; try discriminate; destruct ph as [|[[?|?|]|[?|?|]|]|]; try discriminate;
      intros [= <-]; right; reflexivity.
  - destruct p; try discriminate; destruct ph as [|[[?|?|]|[?|?|]|]|]; try discriminate;
      cbn; destruct (Z.eqb_spec o 0) as [->|Ho]; intros [= <-]; right; cbn; trivial.
  - destruct p; try discriminate; destruct st as [|[[?|?|]|[?|[?|?|]|]|]|]; try discriminate;
      try (destruct ok; intros [= <-]; right; cbn; eauto; fail);
      destruct r; try discriminate; cbn -[is_fail_st];
      destruct (is_fail_st _); intros [= <-]; right; cbn; trivial.
  - rewrite step_tx. intros [= <-]. auto.
  - intros [= <-]. right; cbn; trivial.
Qed.

Lemma filter_snoc {A} (f : A -> bool) l x : filter f (l ++ [x]) = filter f l ++ (if f x then [x] else []).
Proof. rewrite filter_app. simpl. destruct (f x); reflexivity. Qed.

Lemma reach evs : forall p0 q,
  run_acc p0 evs = Some q ->
  (p0 = q /\ filter not_tx evs = []) \/
  exists pre e, filter not_tx evs = pre ++ [e] /\ entry q e.
Proof.
  induction evs as [|e evs IH] using rev_ind; intros p0 q H.
  - injection H as ->. left; auto.
  - rewrite run_acc_app in H. destruct (run_acc p0 evs) as [q0|] eqn:Hq; [|discriminate].
    cbn [run_acc] in H. destruct (acc_step q0 e) as [q'|] eqn:Hs; [|discriminate]. injection H as ->.
    rewrite filter_snoc. destruct (not_tx e) eqn:T.
    + right. exists (filter not_tx evs), e. split; [reflexivity|].
      apply into in Hs as [[-> _]|Hs]; [discriminate|exact Hs].
    + destruct e; try discriminate. rewrite step_tx in Hs. injection Hs as ->.
      rewrite app_nil_r. apply IH, Hq.
Qed.

Lemma start_run_needs p q : acc_step p (TS 1) = Some q -> p = NeedRunStart.
Proof. destruct p; try discriminate. reflexivity. Qed.

Lemma ending_write_needs p r ok q : acc_step p (TP 3 r ok) = Some q -> p = NeedEnding.
Proof. destruct p, r; try discriminate. all: reflexivity. Qed.

Example accepts_full_run :
  accepts [TS 0; TE 0 0; TP 2 false true; TS 1; TE 1 0; TP 3 false true; TS 2; TE 2 0; TP 4 false true] = true.
Proof. reflexivity. Qed.
Example accepts_failed_run :
  accepts [TP 2 false true; TS 1; TE 1 2; TP 5 true true] = true.
Proof. reflexivity. Qed.
Example rejects_start_without_running : accepts [TS 1; TE 1 0] = false.
Proof. reflexivity. Qed.
