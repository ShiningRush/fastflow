(** Labelled transition systems given by a partial step function: runs, invariants along runs, and
    termination of an operation in progress under a measure. *)
From Coq Require Import List Arith Bool Lia.
Import ListNotations.

(** a system whose step is total is a fold *)
Lemma fold_left_inv {A B} (f : A -> B -> A) (P : A -> Prop) l :
  (forall a b, In b l -> P a -> P (f a b)) -> forall a, P a -> P (fold_left f l a).
Proof.
  induction l as [|b r IH]; intros step a H; simpl; [exact H|].
  apply IH; [intros a' b' Hb; apply step; right; exact Hb|apply step; [left; reflexivity|exact H]].
Qed.

Section Lts.
  Context {St Lb : Type} (step : St -> Lb -> option St).

  Fixpoint run (s : St) (ls : list Lb) : option St :=
    match ls with
    | [] => Some s
    | l :: t => match step s l with Some s' => run s' t | None => None end
    end.

  Lemma run_inv (I : St -> Prop) : (forall s l s', I s -> step s l = Some s' -> I s') ->
    forall ls s s', I s -> run s ls = Some s' -> I s'.
  Proof.
    intros HS. induction ls as [|l ls IH]; cbn; intros s s' HI HR.
    - injection HR as <-. exact HI.
    - destruct (step s l) as [s1|] eqn:E; [|discriminate]. exact (IH s1 s' (HS s l s1 HI E) HR).
  Qed.

  Lemma run_bounded (I : St -> Prop) (own : Lb -> bool) (measure : St -> nat) :
    (forall s l s', I s -> step s l = Some s' -> I s') ->
    (forall s l s', I s -> step s l = Some s' -> own l = true -> measure s' < measure s) ->
    forall ls s s', I s -> run s ls = Some s' -> forallb own ls = true -> length ls + measure s' <= measure s.
  Proof.
    intros HS HD. induction ls as [|l ls IH]; cbn; intros s s' HI HR HO; [injection HR as <-; lia|].
    destruct (step s l) as [s1|] eqn:E; [|discriminate]. apply andb_true_iff in HO as [Hl HO].
    specialize (HD s l s1 HI E Hl). specialize (IH s1 s' (HS s l s1 HI E) HR HO). lia.
  Qed.

  Definition enabled_in (cands : list Lb) (s : St) : bool :=
    existsb (fun l => match step s l with Some _ => true | None => false end) cands.

  Lemma enabled_in_intro cands s l s' : In l cands -> step s l = Some s' -> enabled_in cands s = true.
  Proof. intros Hin HS. apply existsb_exists. exists l. rewrite HS. auto. Qed.

  (** An operation is in progress in the [active] states. *)
  Section Terminates.
    Variables (I : St -> Prop) (active : St -> bool) (internal : Lb -> bool) (measure : St -> nat)
              (cands : list Lb) (final : St -> Prop).
    Hypothesis I_step : forall s l s', I s -> step s l = Some s' -> I s'.
    Hypothesis progress : forall s, I s -> active s = true -> enabled_in cands s = true.
    Hypothesis cands_internal : forallb internal cands = true.
    Hypothesis decrease : forall s l s',
      I s -> active s = true -> internal l = true -> step s l = Some s' -> measure s' < measure s.
    Hypothesis ends : forall s l s', active s = true -> step s l = Some s' -> active s' = false -> final s'.

    Fixpoint active_run (s : St) (ls : list Lb) : option St :=
      match ls with
      | [] => Some s
      | l :: t => if active s && internal l
                  then match step s l with Some s1 => active_run s1 t | None => None end
                  else None
      end.

    Theorem active_run_bounded : forall ls s s', I s -> active_run s ls = Some s' -> length ls <= measure s.
    Proof.
      induction ls as [|l ls IH]; cbn; intros s s' HI HR; [lia|].
      destruct (active s) eqn:HA, (internal l) eqn:HL; try discriminate. cbn in HR.
      destruct (step s l) as [s1|] eqn:E; [|discriminate].
      specialize (IH s1 s' (I_step s l s1 HI E) HR). specialize (decrease s l s1 HI HA HL E). lia.
    Qed.

    Lemma active_step s : I s -> active s = true ->
      exists l s1, internal l = true /\ step s l = Some s1 /\ measure s1 < measure s.
    Proof.
      intros HI HA. destruct (proj1 (existsb_exists _ _) (progress s HI HA)) as (l & Hin & Hl).
      destruct (step s l) as [s1|] eqn:E; [|discriminate].
      pose proof (proj1 (forallb_forall _ _) cands_internal l Hin) as HL.
      exists l, s1. exact (conj HL (conj E (decrease s l s1 HI HA HL E))).
    Qed.

    Theorem active_reaches_final : forall n s, I s -> active s = true -> measure s <= n ->
      exists ls s', Forall (fun l => internal l = true) ls /\ run s ls = Some s' /\ final s' /\ length ls <= n.
    Proof.
      induction n as [|n IH]; intros s HI HA HM; destruct (active_step s HI HA) as (l & s1 & HL & E & HD); [lia|].
      destruct (active s1) eqn:HA1.
      - destruct (IH s1 (I_step s l s1 HI E) HA1 ltac:(lia)) as (ls & s' & HF & HR & HE & HN).
        exists (l :: ls), s'. cbn. rewrite E. repeat split; [constructor| | |lia]; assumption.
      - exists [l], s1. cbn. rewrite E. repeat split; [repeat constructor; exact HL|exact (ends s l s1 HA E HA1)|lia].
    Qed.
  End Terminates.
End Lts.
