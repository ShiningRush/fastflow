(** Keeper: the election and membership protocol of keeper/mongo/mongo.go as a labelled
    transition system at the granularity of single database operations.  Labels: clock advance,
    TTL sweep, the operations of one election round (read / insert / compare-and-set / renew)
    with their outcome (ok, failed = not applied, lost = applied but error returned), close,
    crash, heartbeat operations and membership queries.  [fixed = true] is the code as
    repaired by the fix commits (compare-and-set on the updatedAt read; Close deletes only its
    own record); [fixed = false] the code at the pinned commit (refutation witness).  The second half
    of the file holds the lease invariant of the repaired code and the start-up protocol of Init with
    its invariant [J], each with its proof. *)
From Coq Require Import List ZArith Bool Lia Arith.
From FF Require Import Sx Lts.
Import ListNotations.
Local Open Scope Z_scope.

(* ---------- tiny total map on nat keys ---------- *)
Section Map.
  Context {A : Type} (d : A).
  Fixpoint get (l : list A) (k : nat) : A :=
    match l, k with
    | [], _ => d
    | x :: _, O => x
    | _ :: t, S k' => get t k'
    end.
  Fixpoint set (l : list A) (k : nat) (v : A) : list A :=
    match l, k with
    | [], O => [v]
    | [], S k' => d :: set [] k' v
    | _ :: t, O => v :: t
    | x :: t, S k' => x :: set t k' v
    end.
  Lemma get_set_same l k v : get (set l k v) k = v.
  Proof. revert l; induction k as [|k IH]; intros [|x t]; simpl; auto. Qed.
  Lemma get_nil k : get [] k = d.
  Proof. destruct k; reflexivity. Qed.
  Lemma get_set_other l k k' v : k <> k' -> get (set l k v) k' = get l k'.
  Proof.
    revert l k'; induction k as [|k IH]; intros l k' H.
    - destruct l as [|x t]; destruct k' as [|k']; simpl; try congruence; auto using get_nil.
    - destruct l as [|x t]; destruct k' as [|k']; simpl; auto;
        try (rewrite IH by congruence); rewrite ?get_nil; auto; try (apply IH; congruence).
  Qed.
  Lemma get_set l k v k' : get (set l k v) k' = if Nat.eqb k k' then v else get l k'.
  Proof. destruct (Nat.eqb_spec k k') as [<-|H]; [apply get_set_same|apply get_set_other, H]. Qed.
End Map.

(* ---------- election model ---------- *)
Definition key := nat.
Record erec := { holder : key; upd : Z }.
Inductive res := Ok | Fail | Lost.
Inductive pc := Idle | GoInsert | GoCas (old : key) (oupd : Z) | GoRenew.
Record kp := { flag : bool; lease : Z; kpc : pc }.
Definition kp0 := {| flag := false; lease := 0; kpc := Idle |}.
Record st := { now : Z; rec : option erec; kps : list kp; hbs : list (option Z) }.

Inductive label :=
| Tick (d : Z) | Sweep
| ElectBegin (k : key) | CampRead (k : key)
| Insert (k : key) (r : res) | Cas (k : key) (r : res) | Renew (k : key) (r : res)
| CloseLeader (k : key) | Crash (k : key)
| Beat (k : key) (r : res) | CloseBeat (k : key) | SweepHb (k : key)
| ObsFlag (k : key) (b : bool)                  (* IsLeader() observed on the implementation *)
| ObsAlive (ks : list key).                     (* AliveNodes() observed on the implementation *)

Section Elect.
  Variable U : Z.
  Variable fixed : bool.   (* false = code as it is; true = repaired compare-and-set / close *)

  Definition K (s : st) (k : key) := get kp0 (kps s) k.
  Definition setK (s : st) (k : key) (v : kp) := {| now := now s; rec := rec s; kps := set kp0 (kps s) k v; hbs := hbs s |}.
  Definition setRec (s : st) (r : option erec) := {| now := now s; rec := r; kps := kps s; hbs := hbs s |}.
  Definition HB (s : st) (k : key) : option Z := get None (hbs s) k.
  Definition setHb (s : st) (k : key) (v : option Z) := {| now := now s; rec := rec s; kps := kps s; hbs := set None (hbs s) k v |}.
  (** membership: the heartbeat is younger than the unhealthy period *)
  Definition alive (s : st) (k : key) : bool :=
    match HB s k with Some u => now s - u <? U | None => false end.
  Definition alive_set (s : st) (n : nat) : list key := filter (alive s) (seq 0 n).

  Definition step (s : st) (l : label) : option st :=
    match l with
    | Tick d => if 0 <=? d then Some {| now := now s + d; rec := rec s; kps := kps s; hbs := hbs s |} else None
    | Sweep => match rec s with
               | Some r => if upd r + U <? now s then Some (setRec s None) else None
               | None => None
               end
    | ElectBegin k =>
        match kpc (K s k) with
        | Idle => Some (setK s k {| flag := flag (K s k); lease := lease (K s k);
                                    kpc := if flag (K s k) then GoRenew else Idle |})
        | _ => None
        end
    | CampRead k =>
        match kpc (K s k), flag (K s k) with
        | Idle, false =>
            match rec s with
            | None => Some (setK s k {| flag := false; lease := lease (K s k); kpc := GoInsert |})
            | Some r =>
                if Nat.eqb (holder r) k then Some (setK s k {| flag := true; lease := upd r; kpc := Idle |})
                else if upd r <? now s - U then Some (setK s k {| flag := false; lease := lease (K s k); kpc := GoCas (holder r) (upd r) |})
                else Some s
            end
        | _, _ => None
        end
    | Insert k r =>
        match kpc (K s k) with
        | GoInsert =>
            match r, rec s with
            | Fail, _ => Some (setK s k {| flag := false; lease := lease (K s k); kpc := Idle |})
            | _, Some _ => Some (setK s k {| flag := false; lease := lease (K s k); kpc := Idle |}) (* duplicate key *)
            | Ok, None => Some (setK (setRec s (Some {| holder := k; upd := now s |})) k {| flag := true; lease := now s; kpc := Idle |})
            | Lost, None => Some (setK (setRec s (Some {| holder := k; upd := now s |})) k {| flag := false; lease := lease (K s k); kpc := Idle |})
            end
        | _ => None
        end
    | Cas k r =>
        match kpc (K s k) with
        | GoCas old oupd =>
            let idle f le := {| flag := f; lease := le; kpc := Idle |} in
            match r with
            | Fail => Some (setK s k (idle false (lease (K s k))))
            | _ =>
                match rec s with
                | Some c =>
                    if Nat.eqb (holder c) old && (negb fixed || (upd c =? oupd)) then
                      let s' := setRec s (Some {| holder := k; upd := now s |}) in
                      match r with
                      | Ok => Some (setK s' k (idle true (now s)))
                      | _ => Some (setK s' k (idle false (lease (K s k))))
                      end
                    else Some (setK s k (idle false (lease (K s k))))
                | None => Some (setK s k (idle false (lease (K s k))))
                end
            end
        | _ => None
        end
    | Renew k r =>
        match kpc (K s k) with
        | GoRenew =>
            let idle f le := {| flag := f; lease := le; kpc := Idle |} in
            match r with
            | Fail => Some (setK s k (idle false (lease (K s k))))
            | _ =>
                match rec s with
                | Some c =>
                    if Nat.eqb (holder c) k then
                      let s' := setRec s (Some {| holder := k; upd := now s |}) in
                      match r with
                      | Ok => Some (setK s' k (idle true (now s)))
                      | _ => Some (setK s' k (idle false (lease (K s k))))
                      end
                    else Some (setK s k (idle false (lease (K s k))))
                | None => Some (setK s k (idle false (lease (K s k))))
                end
            end
        | _ => None
        end
    | CloseLeader k =>
        if flag (K s k) then
          match rec s with
          | Some c => if negb fixed || Nat.eqb (holder c) k
                      then Some (setK (setRec s None) k kp0) else Some (setK s k kp0)
          | None => Some (setK s k kp0)
          end
        else Some (setK s k kp0)
    | Crash k => Some (setK s k kp0)
    | Beat k r => match r with
                  | Fail => Some s
                  | _ => Some (setHb s k (Some (now s)))   (* upsert updatedAt := now (ok or reply lost) *)
                  end
    | CloseBeat k => Some (setHb s k None)
    | SweepHb k => match HB s k with
                   | Some u => if u + U <? now s then Some (setHb s k None) else None
                   | None => None
                   end
    | ObsFlag k b => if Bool.eqb (flag (K s k)) b then Some s else None
    | ObsAlive ks => if list_eqb Nat.eqb ks (alive_set s (length (hbs s))) then Some s else None
    end.

  Fixpoint run (s : st) (ls : list label) : option st :=
    match ls with
    | [] => Some s
    | l :: t => match step s l with Some s' => run s' t | None => None end
    end.

  Definition init := {| now := 0; rec := None; kps := []; hbs := [] |}.

  Definition valid (s : st) (k : key) := flag (K s k) = true /\ now s < lease (K s k) + U.
  Definition Inv (s : st) := forall k, valid s k -> rec s = Some {| holder := k; upd := lease (K s k) |}.
  (* auxiliary: a pending compare-and-set snapshot is stale, and every lease is in the past *)
  Definition Aux (s : st) :=
    (forall k old ou, kpc (K s k) = GoCas old ou -> ou < now s - U) /\
    (forall k, lease (K s k) <= now s) /\
    (forall r, rec s = Some r -> upd r <= now s).
End Elect.

(* ---- the code as it is: two unexpired leaders (refutation witness, replayable) ---- *)
Definition witness : list label :=
  [ CampRead 0%nat; Insert 0%nat Ok;              (* A leader at t=0 *)
    Tick 6;                                (* A is late: lease (U=5) expired *)
    CampRead 1%nat;                            (* B reads the stale record *)
    ElectBegin 0%nat; Renew 0%nat Ok;              (* A renews at t=6: lease valid until 11 *)
    Cas 1%nat Ok ].                            (* B's compare-and-set on workerKey only succeeds *)

Definition two_leaders (U : Z) (s : st) :=
  andb (andb (flag (K s 0%nat)) (flag (K s 1%nat)))
       (andb (now s <? lease (K s 0%nat) + U) (now s <? lease (K s 1%nat) + U)).

(* same schedule on the repaired compare-and-set: B does not become leader *)
Example witness_fixed :
  exists s, run 5 true init witness = Some s /\ two_leaders 5 s = false.
Proof. eexists; split; [vm_compute; reflexivity | vm_compute; reflexivity]. Qed.

(* the repaired code: the lease invariant holds in every reachable state *)
Section Proofs.
  Variable U : Z.

  Notation stepF := (step U true).

  Lemma K_setK_same s k v : K (setK s k v) k = v.
  Proof. exact (get_set_same kp0 (kps s) k v). Qed.
  Lemma K_setK s k v k' : K (setK s k v) k' = if Nat.eqb k k' then v else K s k'.
  Proof. exact (get_set kp0 (kps s) k v k'). Qed.
  Lemma K_setRec s r k : K (setRec s r) k = K s k.  Proof. reflexivity. Qed.
  Lemma rec_setK s k v : rec (setK s k v) = rec s.  Proof. reflexivity. Qed.
  Lemma now_setK s k v : now (setK s k v) = now s.  Proof. reflexivity. Qed.

  Lemma HB_setHb_same s k v : HB (setHb s k v) k = v.
  Proof. exact (get_set_same None (hbs s) k v). Qed.
  Lemma HB_setHb s k v k' : HB (setHb s k v) k' = if Nat.eqb k k' then v else HB s k'.
  Proof. exact (get_set None (hbs s) k v k'). Qed.

  Lemma alive_iff s k : alive U s k = true <-> exists u, HB s k = Some u /\ now s - u < U.
  Proof.
    unfold alive. destruct (HB s k) as [u|].
    - rewrite Z.ltb_lt. split; [intros L; exists u; auto|intros (u' & E & L); injection E as <-; exact L].
    - split; [discriminate|intros (u & E & _); discriminate].
  Qed.

  Lemma erec_eta r : r = {| holder := holder r; upd := upd r |}.  Proof. destruct r; reflexivity. Qed.

  (* Insert, Cas and Renew differ in when the write applies; what becomes of the state is one function of that
     and of the result reported to the keeper. *)
  Definition wrote (s : st) (k : key) (applies : bool) (r : res) : st :=
    match (if applies then r else Fail) with
    | Ok => setK (setRec s (Some {| holder := k; upd := now s |})) k {| flag := true; lease := now s; kpc := Idle |}
    | Lost => setK (setRec s (Some {| holder := k; upd := now s |})) k {| flag := false; lease := lease (K s k); kpc := Idle |}
    | Fail => setK s k {| flag := false; lease := lease (K s k); kpc := Idle |}
    end.

  Lemma K_wrote s k a r : K (wrote s k a r) k =
    match (if a then r else Fail) with
    | Ok => {| flag := true; lease := now s; kpc := Idle |}
    | _ => {| flag := false; lease := lease (K s k); kpc := Idle |}
    end.
  Proof. unfold wrote. destruct (if a then r else Fail); apply K_setK_same. Qed.

  Lemma step_Insert fixed s k r : step U fixed s (Insert k r) =
    match kpc (K s k) with
    | GoInsert => Some (wrote s k (match rec s with None => true | Some _ => false end) r)
    | _ => None
    end.
  Proof. cbn [step]. destruct (kpc (K s k)); try reflexivity. destruct r, (rec s); reflexivity. Qed.
  Lemma step_Cas fixed s k r : step U fixed s (Cas k r) =
    match kpc (K s k) with
    | GoCas old ou => Some (wrote s k (match rec s with
                                       | Some c => Nat.eqb (holder c) old && (negb fixed || (upd c =? ou))
                                       | None => false
                                       end) r)
    | _ => None
    end.
  Proof.
    cbn [step]. destruct (kpc (K s k)) as [| |old ou|]; try reflexivity.
    destruct r, (rec s) as [c|]; try reflexivity; destruct (Nat.eqb (holder c) old && _); reflexivity.
  Qed.
  Lemma step_Renew fixed s k r : step U fixed s (Renew k r) =
    match kpc (K s k) with
    | GoRenew => Some (wrote s k (match rec s with Some c => Nat.eqb (holder c) k | None => false end) r)
    | _ => None
    end.
  Proof.
    cbn [step]. destruct (kpc (K s k)); try reflexivity.
    destruct r, (rec s) as [c|]; try reflexivity; destruct (Nat.eqb (holder c) k); reflexivity.
  Qed.

  (* what the invariant asks of one keeper's local state [x] at time [t] under record [r] *)
  Definition ok (t : Z) (r : option erec) (k : key) (x : kp) : Prop :=
    (flag x = true -> t < lease x + U -> r = Some {| holder := k; upd := lease x |}) /\
    match kpc x with GoCas _ ou => ou < t - U | _ => True end.
  Definition KI (s : st) := forall k, ok (now s) (rec s) k (K s k).

  Lemma KI_Inv s : KI s -> Inv U s.
  Proof. intros HI k [Hf Hl]. exact (proj1 (HI k) Hf Hl). Qed.

  Lemma KI_init : KI init.
  Proof. intros k. unfold K, init; simpl. split; [discriminate|exact Logic.I]. Qed.

  Lemma ok_later t t' r k x : t <= t' -> ok t r k x -> ok t' r k x.
  Proof.
    intros Ht [Hv Hs]. split.
    - intros Hf Hl. apply Hv; [exact Hf|lia].
    - destruct (kpc x); trivial. lia.
  Qed.
  Lemma ok_off t r k le p :
    match p with GoCas _ ou => ou < t - U | _ => True end -> ok t r k {| flag := false; lease := le; kpc := p |}.
  Proof. split; [discriminate|assumption]. Qed.
  Lemma ok_won t k : ok t (Some {| holder := k; upd := t |}) k {| flag := true; lease := t; kpc := Idle |}.
  Proof. split; [reflexivity|exact Logic.I]. Qed.

  Lemma KI_setK s k v : KI s -> ok (now s) (rec s) k v -> KI (setK s k v).
  Proof. intros HI Hv k'. rewrite K_setK. destruct (Nat.eqb_spec k k') as [<-|_]; [exact Hv|apply HI]. Qed.

  Lemma KI_lose s k le : KI s -> KI (setK s k {| flag := false; lease := le; kpc := Idle |}).
  Proof. intros HI. apply KI_setK, ok_off; [exact HI|exact Logic.I]. Qed.

  Definition writable (s : st) (k : key) := forall k', k' <> k -> ~ valid U s k'.

  Lemma KI_write s r k v : KI s -> writable s k -> ok (now s) r k v -> KI (setK (setRec s r) k v).
  Proof.
    intros HI Hw Hv k'. rewrite K_setK, K_setRec. destruct (Nat.eqb_spec k k') as [<-|Hne]; [exact Hv|].
    split; [|exact (proj2 (HI k'))]. intros Hf Hl. destruct (Hw k' (not_eq_sym Hne)). split; assumption.
  Qed.

  Lemma valid_holds s k : KI s -> valid U s k -> exists c, rec s = Some c /\ holder c = k /\ now s < upd c + U.
  Proof. intros HI [Hf Hl]. eexists. split; [exact (proj1 (HI k) Hf Hl)|split; [reflexivity|exact Hl]]. Qed.

  Lemma writable_if s k : KI s ->
    match rec s with Some c => holder c = k \/ upd c + U <= now s | None => True end -> writable s k.
  Proof.
    intros HI Hr k' Hne V. destruct (valid_holds s k' HI V) as (c & E & Hh & Hl). rewrite E in Hr.
    destruct Hr; [congruence|lia].
  Qed.

  Lemma KI_wrote s k a r : KI s ->
    (a = true -> match rec s with Some c => holder c = k \/ upd c + U <= now s | None => True end) -> KI (wrote s k a r).
  Proof.
    intros HI Hw. unfold wrote. destruct a; [|apply KI_lose, HI].
    pose proof (writable_if s k HI (Hw eq_refl)) as Hk. destruct r.
    - apply KI_write, ok_won; assumption.
    - apply KI_lose, HI.
    - apply KI_write, ok_off; trivial.
  Qed.

  Lemma KI_step s l s' : KI s -> stepF s l = Some s' -> KI s'.
  Proof.
    intros HI Hstep. destruct l.
    - (* Tick *)
      simpl in Hstep.
      destruct (Z.leb_spec 0 d) as [Hd|]; [|discriminate]. injection Hstep as <-.
      intros k'. apply (ok_later (now s)); [simpl; lia|apply HI].
    - (* Sweep: the record has expired, so nobody's lease is valid *)
      simpl in Hstep.
      destruct (rec s) as [r|] eqn:Hr; [|discriminate].
      destruct (Z.ltb_spec (upd r + U) (now s)) as [Hlt|]; [|discriminate]. injection Hstep as <-.
      intros k'. split; [|exact (proj2 (HI k'))]. intros Hf Hl.
      destruct (valid_holds s k' HI (conj Hf Hl)) as (c & E & _ & L). rewrite Hr in E. injection E as <-. lia.
    - (* ElectBegin *)
      simpl in Hstep.
      destruct (kpc (K s k)) eqn:Hpc; try discriminate. injection Hstep as <-.
      apply KI_setK; [exact HI|]. split; [exact (proj1 (HI k))|]. simpl. destruct (flag (K s k)); exact Logic.I.
    - (* CampRead *)
      simpl in Hstep.
      destruct (kpc (K s k)) eqn:Hpc; try discriminate.
      destruct (flag (K s k)) eqn:Hfl; try discriminate.
      destruct (rec s) as [r|] eqn:Hr.
      + destruct (Nat.eqb_spec (holder r) k) as [Hh|Hh].
        * injection Hstep as <-. apply KI_setK; [exact HI|]. split; [|exact Logic.I].
          intros _ _. rewrite Hr, <- Hh. f_equal. apply erec_eta.
        * destruct (Z.ltb_spec (upd r) (now s - U)) as [Hst|]; injection Hstep as <-; [|exact HI].
          apply KI_setK, ok_off; [exact HI|exact Hst].
      + injection Hstep as <-. apply KI_setK, ok_off; trivial.
    - (* Insert: writes only when there is no record *)
      rewrite step_Insert in Hstep. destruct (kpc (K s k)); try discriminate. injection Hstep as <-.
      apply KI_wrote; [exact HI|]. destruct (rec s); [discriminate|trivial].
    - (* Cas: writes only over the record it read, which was stale then and is the same now *)
      rewrite step_Cas in Hstep. pose proof (proj2 (HI k)) as Hstale.
      destruct (kpc (K s k)); try discriminate. injection Hstep as <-.
      apply KI_wrote; [exact HI|]. destruct (rec s) as [c|]; [|discriminate].
      intros [_ Hu%Z.eqb_eq]%andb_true_iff. right; lia.
    - (* Renew: writes only over its own record *)
      rewrite step_Renew in Hstep. destruct (kpc (K s k)); try discriminate. injection Hstep as <-.
      apply KI_wrote; [exact HI|]. destruct (rec s) as [c|]; [|discriminate]. intros Ha%Nat.eqb_eq. left; exact Ha.
    - (* CloseLeader: deletes only its own record *)
      simpl in Hstep.
      destruct (flag (K s k)); [destruct (rec s) as [c|] eqn:Hr; [destruct (Nat.eqb_spec (holder c) k) as [Hh|Hh]|]|];
        simpl in Hstep; injection Hstep as <-.
      2-4: apply KI_lose, HI.
      apply KI_write, ok_off; trivial. apply writable_if; [exact HI|rewrite Hr; left; exact Hh].
    - (* Crash *)
      simpl in Hstep.
      injection Hstep as <-. apply KI_lose, HI.
    - (* Beat *)
      simpl in Hstep.
      destruct r; injection Hstep as <-; exact HI.
    - (* CloseBeat *)
      simpl in Hstep.
      injection Hstep as <-; exact HI.
    - (* SweepHb *)
      simpl in Hstep.
      destruct (HB s k) as [u|]; [|discriminate]. destruct (u + U <? now s); [|discriminate].
      injection Hstep as <-; exact HI.
    - (* ObsFlag *)
      simpl in Hstep.
      destruct (Bool.eqb (flag (K s k)) b); [|discriminate]. injection Hstep as <-; exact HI.
    - (* ObsAlive *)
      simpl in Hstep.
      destruct (list_eqb Nat.eqb ks (alive_set U s (length (hbs s)))); [|discriminate]. injection Hstep as <-; exact HI.
  Qed.

  Theorem lease_invariant ls s : run U true init ls = Some s -> Inv U s.
  Proof. intros H. exact (KI_Inv s (run_inv stepF KI KI_step ls _ _ KI_init H)). Qed.

  (* C08 (1): two keepers never both hold an unexpired lease *)
  Theorem C08_unique_lease ls s k1 k2 :
    run U true init ls = Some s -> valid U s k1 -> valid U s k2 -> k1 = k2.
  Proof.
    intros Hr V1 V2. pose proof (lease_invariant _ _ Hr) as HI.
    pose proof (HI k1 V1) as E1. pose proof (HI k2 V2) as E2. rewrite E1 in E2. injection E2 as ->. reflexivity.
  Qed.
End Proofs.

(** The start-up protocol of Init.  wg = firstInitWg counter (starts at 2); each loop reports once when
    [once] (the repaired code) or on every round until Init completed (the pinned code) *)
Record ist := { wg : Z; completed : bool; returned : bool; hb_stored : bool; e_done : bool; b_done : bool; panicked : bool }.
Definition ist0 := {| wg := 2; completed := false; returned := false; hb_stored := false; e_done := false; b_done := false; panicked := false |}.
Inductive ilabel := IElectRound | IBeatOk | IBeatFail | IReturn.

Definition done (once : bool) (s : ist) (is_elect : bool) : ist :=
  if completed s then s
  else if once && (if is_elect then e_done s else b_done s) then s
  else {| wg := wg s - 1; completed := completed s; returned := returned s; hb_stored := hb_stored s;
          e_done := (if is_elect then true else e_done s); b_done := (if is_elect then b_done s else true);
          panicked := panicked s || (wg s - 1 <? 0) |}.

Definition istep (once : bool) (s : ist) (l : ilabel) : option ist :=
  match l with
  | IElectRound => Some (done once s true)
  | IBeatOk => let s1 := {| wg := wg s; completed := completed s; returned := returned s; hb_stored := true;
                            e_done := e_done s; b_done := b_done s; panicked := panicked s |} in
               Some (done once s1 false)
  | IBeatFail => Some s
  | IReturn => if (wg s <=? 0) && negb (returned s)
               then Some {| wg := wg s; completed := true; returned := true; hb_stored := hb_stored s;
                            e_done := e_done s; b_done := b_done s; panicked := panicked s |}
               else None
  end.

Fixpoint irun (once : bool) (s : ist) (ls : list ilabel) : option ist :=
  match ls with [] => Some s | l :: r => match istep once s l with Some s' => irun once s' r | None => None end end.

(* [irun] takes [once] as an argument of its fixpoint, so unlike [run U fixed] it is not convertible with
   [Lts.run] of its step function *)
Lemma irun_run once s ls : irun once s ls = Lts.run (istep once) s ls.
Proof. revert s. induction ls as [|l r IH]; intros s; cbn; [|destruct (istep once s l)]; auto. Qed.

Definition b2z (b : bool) : Z := if b then 1 else 0.
Lemma b2z_range b : 0 <= b2z b <= 1.
Proof. destruct b; simpl; lia. Qed.

(** invariant of the repaired protocol *)
Definition J (s : ist) : Prop :=
  panicked s = false /\ wg s = 2 - b2z (e_done s) - b2z (b_done s) /\
  (b_done s = true -> hb_stored s = true) /\ (returned s = true -> hb_stored s = true).

Lemma J_init : J ist0.
Proof. repeat split; discriminate. Qed.

Lemma J_done s e : J s -> (e = false -> hb_stored s = true) -> J (done true s e).
Proof.
  intros HJ Hh. unfold done. destruct (completed s); [exact HJ|].
  destruct (true && _) eqn:Hd; [exact HJ|]. destruct HJ as (Hp & Hw & Hb & Hr).
  pose proof (b2z_range (e_done s)). pose proof (b2z_range (b_done s)).
  (* the loop that reports had not reported: the counter was at least 1 *)
  destruct e; cbn in Hd; rewrite Hd in Hw; cbn [b2z] in Hw;
    (repeat split; cbn [wg hb_stored e_done b_done panicked b2z]; [rewrite Hp; apply Z.ltb_ge; lia|lia|auto ..]).
Qed.

Lemma J_step s l s' : J s -> istep true s l = Some s' -> J s'.
Proof.
  intros HJ Hst. destruct l; simpl in Hst.
  - injection Hst as <-. apply J_done; [exact HJ|discriminate].
  - injection Hst as <-. apply J_done; [|reflexivity].
    destruct HJ as (Hp & Hw & Hb & Hr). repeat split; auto.
  - injection Hst as <-. exact HJ.
  - (* Init returns: both loops have reported *)
    destruct ((wg s <=? 0) && negb (returned s)) eqn:G; [|discriminate]. injection Hst as <-.
    apply andb_true_iff in G as [G1%Z.leb_le _]. destruct HJ as (Hp & Hw & Hb & Hr).
    repeat split; try assumption. intros _. apply Hb.
    destruct (b_done s); [reflexivity|]. pose proof (b2z_range (e_done s)). cbn [b2z] in Hw. lia.
Qed.
