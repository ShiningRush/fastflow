(** TreeFuel: the explicit fuel of the level-order cycle check is adequate.  On a ranked graph every node
    queued in level k ends a dependency chain of k+1 distinct tasks, so there are at most [length t]
    non-empty levels and [default_fuel t = length t + 2] never runs out.  With it the decision theorem of
    C16 needs no fuel hypothesis. *)
From Coq Require Import List ZArith Bool Arith Lia.
From FF Require Import Sx TaskTree TaskTreeFacts.
Import ListNotations.

Section Fuel.
  Variable t : tree.
  Variable rank : Z -> nat.
  Hypothesis Hr : forall n d, In n t -> In d (ndeps n) -> rank d < rank (gid n).

  Fixpoint chain (k : nat) (x : Z) : Prop :=
    match k with
    | O => In x (gids t)
    | S k' => exists n p, In n t /\ gid n = x /\ In p (ndeps n) /\ chain k' p
    end.

  Lemma chain_in k x : chain k x -> In x (gids t).
  Proof.
    destruct k; cbn; [auto|]. intros (n & p & Hn & Hg & _). subst x. apply in_map. exact Hn.
  Qed.

  Lemma chain_distinct k : forall x, chain k x ->
    exists l, NoDup l /\ length l = S k /\ incl l (gids t) /\ (forall y, In y l -> rank y <= rank x).
  Proof.
    induction k as [|k IH]; cbn; intros x Hc.
    - exists [x]. repeat split.
      + constructor; [intros []|constructor].
      + intros y [<-|[]]. exact Hc.
      + intros y [<-|[]]. lia.
    - destruct Hc as (n & p & Hn & Hg & Hp & Hcp). subst x.
      destruct (IH p Hcp) as (l & Hnd & Hlen & Hincl & Hrk).
      pose proof (Hr n p Hn Hp) as Hlt.
      exists (gid n :: l). repeat split.
      + constructor; [|exact Hnd]. intros Hin. specialize (Hrk _ Hin). lia.
      + cbn. rewrite Hlen. reflexivity.
      + intros y [<-|Hy]; [apply in_map; exact Hn|apply Hincl; exact Hy].
      + intros y [<-|Hy]; [lia|]. specialize (Hrk _ Hy). lia.
  Qed.

  Lemma chain_bound k x : chain k x -> S k <= length t.
  Proof.
    intros Hc. destruct (chain_distinct k x Hc) as (l & Hnd & Hlen & Hincl & _).
    rewrite <- Hlen. unfold gids in Hincl. rewrite <- (map_length gid t). apply NoDup_incl_length; assumption.
  Qed.

  Lemma level_next todo : forall visited inc next v i n,
    level t todo visited inc next = (v, i, n) ->
    incl n (next ++ flat_map (fun cur => children t (Some cur)) todo).
  Proof.
    induction todo as [|cur rest IH]; cbn; intros visited inc next v i n H.
    - injection H as _ _ <-. rewrite app_nil_r. apply incl_refl.
    - destruct (complete t visited cur); apply IH in H.
      + rewrite <- app_assoc in H. exact H.
      + eapply incl_tran; [exact H|]. apply incl_app; [apply incl_appl|apply incl_appr, incl_appr]; apply incl_refl.
  Qed.

  Lemma bfs_adequate fuel : forall k todo visited inc,
    (forall x, In x todo -> chain k x) -> 1 <= fuel -> length t + 2 <= fuel + k -> bfs fuel t todo visited inc <> None.
  Proof.
    induction fuel as [|f IH]; intros k todo visited inc Hch H1 Hf; [lia|].
    destruct todo as [|x r]; [cbn; discriminate|].
    pose proof (chain_bound k x (Hch x (or_introl eq_refl))) as Hb.
    cbn [bfs]. destruct (level t (x :: r) visited inc []) as [[v i] n] eqn:EL.
    apply (IH (S k)); [|lia|lia].
    intros y Hy. apply (level_next _ _ _ _ _ _ _ EL), in_flat_map in Hy as (cur & Hcur & Hyc).
    apply children_spec in Hyc as (nn & Hn & Hg & Hd).
    cbn. exists nn, cur. repeat split; auto.
  Qed.

  Theorem cycle_check_fuel_adequate : cycle_check (default_fuel t) t <> None.
  Proof.
    unfold cycle_check, default_fuel. apply (bfs_adequate _ 0); [|lia|lia].
    intros x. apply children_in_gids.
  Qed.
End Fuel.

Theorem valid_fuel_adequate t : valid_dag t -> cycle_check (default_fuel t) t <> None.
Proof.
  intros (ND & _ & _ & (rank & Hr)). exact (cycle_check_fuel_adequate t rank Hr).
Qed.

Theorem build_root_iff t : build_root t = None <-> valid_dag t.
Proof.
  unfold build_root. split; [apply build_accept_sound|].
  intros H. apply build_accept_complete; [exact H|apply valid_fuel_adequate; exact H].
Qed.

Theorem build_root_never_out_of_fuel t : valid_dag t -> build_root t <> Some BOutOfFuel.
Proof. intros H. rewrite (proj2 (build_root_iff t) H). discriminate. Qed.
