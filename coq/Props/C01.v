(** C01 — Dependency order.  Part A (unconditional, every tree, every status
    assignment): whatever the scheduler's tree walk hands to the executor has all
    its dependencies success/skipped in the tree.  The engine-level statement
    (every action phase start sees every dependency recorded success/skipped in
    the store) is the monitor [EngineMon.mstep] clause (1,_), evaluated on every
    journal of the real engine, and - over the Engine LTS - the theorems
    [C01_engine_*] at the end of this file. *)
From Coq Require Import List ZArith Bool Arith.
From FF Require Import Sx TaskTree TaskTreeFacts Engine EngineFacts EngineSettle EngineLive.
Import ListNotations.

(** every id returned by GetExecutableTaskIds has all its parents success/skipped in the tree *)
Theorem C01_executable_ids_parents_done : forall t l v p,
  executable_ids t = Some l -> In v l -> In p (parents t v) -> gnode_ok t p = true.
Proof. intros t l v p H Hv. apply executable_spec, (executable_ids_In t l v H Hv). Qed.
Print Assumptions C01_executable_ids_parents_done.

Theorem C01_executable_ids_status : forall t l v,
  executable_ids t = Some l -> In v l -> executable_st (status_of t v) = true.
Proof. exact executable_ids_status. Qed.
Print Assumptions C01_executable_ids_status.

Theorem C01_next_ids_children_done : forall t g s t' ids v p,
  next_ids t g s = Some (t', ids, true) -> s <> TInit ->
  In v ids -> In p (parents t' v) -> gnode_ok t' p = true.
Proof. exact next_ids_children_done. Qed.
Print Assumptions C01_next_ids_children_done.

Theorem C01_unfinished_enables_nothing : forall t g s t' ids,
  next_ids t g s = Some (t', ids, true) -> s <> TInit -> can_exec_child_st s = false -> ids = [].
Proof. exact next_ids_unfinished_none. Qed.
Print Assumptions C01_unfinished_enables_nothing.

(** --- engine level (Engine: persisted task and instance statuses, the parser's tree and event queue, the
    pushes in progress with their pre-check verdicts, the executor's registered runs and the deliveries
    under way, the retry and continue commands in their phases, crash and restart, the watchdog - one
    instance as a transition system at the granularity of single store writes and goroutine hand-overs;
    scope: pre-checks (skip / block), failures in every phase, retry and continue commands also while the
    instance is busy, no-op commands; not: cancel, failing writes).  The statements hold for every history
    in which no delivery is accepted, and no pre-check verdict written, on the strength of a stale snapshot
    or next to another delivery of the same task ([validate = true], the other switches arbitrary); the code
    as it is admits both after a retry command re-initialised a busy instance, and then every one of them
    fails ([..._refuted]; known finding F-dup-push, reproduced on the real code).  Journals of the real
    engine in this scope are checked to be histories of Engine ([EngineCheck.check_core]) and the hypothesis
    is monitored on them. --- *)

Theorem C01_engine_dependency_order : forall tasks deps cq nn ls s t s',
  run tasks deps true cq nn boot ls = Some s -> step tasks deps true cq nn s (MainStart t) = Some s' ->
  parents_done deps (store s) t = true.
Proof.
  intros tasks deps cq nn ls s t s' Hr Hs.
  exact (main_start_parents_done tasks deps cq nn s t s' (inv_history tasks deps cq nn ls s Hr) Hs).
Qed.
Print Assumptions C01_engine_dependency_order.

(** and a dependency that is recorded finished (success or skipped) keeps that status *)
Theorem C01_engine_dependency_stays_done : forall tasks deps cq nn ls s l s' d,
  run tasks deps true cq nn boot ls = Some s -> step tasks deps true cq nn s l = Some s' ->
  done (store s d) = true -> store s' d = store s d.
Proof.
  intros tasks deps cq nn ls s l s' d Hr Hs.
  exact (done_final tasks deps cq nn s l s' d (inv_history tasks deps cq nn ls s Hr) Hs).
Qed.
Print Assumptions C01_engine_dependency_stays_done.

Theorem C01_engine_unvalidated_refuted :
  exists s, run [1; 2; 3]%Z deps3 false false true boot witness_dup = Some s /\
            (exists s', step [1; 2; 3]%Z deps3 false false true s (MainStart 3) = Some s') /\ parents_done deps3 (store s) 3 = false.
Proof.
  destruct unvalidated_refuted as (s & Hr & _ & _ & _ & H3 & Hp). exists s. repeat split; assumption.
Qed.
Print Assumptions C01_engine_unvalidated_refuted.

(** with commands issued and picked up at quiescent points the code as it is needs no hypothesis about
    deliveries ([validate] arbitrary, also false): no stale or duplicate delivery can arise *)
Theorem C01_engine_quiet_commands_dependency_order : forall tasks deps validate (rank : Z -> nat),
  NoDup tasks ->
  (forall t d, In d (deps t) -> (rank d < rank t)%nat) ->
  (forall t d, In t tasks -> In d (deps t) -> In d tasks) ->
  forall ls s t s', run tasks deps validate true true boot ls = Some s ->
  step tasks deps validate true true s (MainStart t) = Some s' -> parents_done deps (store s) t = true.
Proof.
  intros tasks deps validate rank Hnd Hrank Hclosed ls s t s' Hr Hs.
  apply (quiet_main_start_parents_done tasks deps validate s t s'); [|exact Hs].
  exact (invq_history tasks deps validate rank Hnd Hrank Hclosed ls s Hr).
Qed.
Print Assumptions C01_engine_quiet_commands_dependency_order.
