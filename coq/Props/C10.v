(** C10 — distributed mutex.  [Mutex.mstep true] is MongoMutex (Lock / spinLock / Unlock) as
    repaired by the three fix commits, for one key and any number of handles, at
    single-database-operation granularity with failed and lost-reply operations in the spin loop,
    clock advances and TTL sweeps.  Journals of 2-4 real handles (real time, 100 ms spin ticker)
    must be accepted by it; the monitor judges the implementation's own return values.
    Owner of the key = the reentrant identity when non-empty, else the handle: a successful
    Unlock releases the key for every handle sharing it. *)
From Coq Require Import List ZArith Bool Lia Arith.
From FF Require Import Sx Mutex MutexFacts.
Import ListNotations.
Local Open Scope Z_scope.

(** (1) mutual exclusion: in every reachable state two different handles hold the key at the same
    time only if they share the same non-empty reentrant identity *)
Theorem C10_mutual_exclusion : forall ls s h1 h2,
  mrun true minit ls = Some s -> holds_now s h1 -> holds_now s h2 -> h1 <> h2 ->
  h_ident (H s h1) = h_ident (H s h2) /\ h_ident (H s h1) <> 0.
Proof.
  intros ls s h1 h2 Hr H1 H2 Hne.
  destruct (holder_sees_doc ls s h1 Hr H1) as (d & Hm1 & Hid1 & Hown1).
  destruct (holder_sees_doc ls s h2 Hr H2) as (d2 & Hm2 & Hid2 & Hown2).
  assert (d2 = d) by congruence. subst d2. split; [congruence|].
  destruct Hown1 as [O1|N1]; [|exact N1]. destruct Hown2 as [O2|N2]; congruence.
Qed.
Print Assumptions C10_mutual_exclusion.

(** (2) honesty: when a Lock call reaches its successful return, the document names the caller's
    expiry (it wrote it, or adopted a lock of its own non-empty identity) *)
Theorem C10_lock_success_is_honest : forall ls s h,
  mrun true minit ls = Some s -> h_pc (H s h) = MRet 0 -> h_holds (H s h) = true ->
  exists e i, h_detail (H s h) = Some (e, i) /\
    (m_now s < e -> exists d, m_doc s = Some d /\ d_exp d = e /\ d_id d = h_ident (H s h)).
Proof.
  intros ls s h Hr _ Hh. destruct (MInv_reachable ls s Hr h) as [_ Ho]. destruct (Ho Hh) as (e & i & He & Hdoc).
  exists e, i. split; [exact He|]. intros L. destruct (Hdoc L) as (d & A & B & C & _). exists d. auto.
Qed.
Print Assumptions C10_lock_success_is_honest.

(** a database failure during the spin loop never turns into a successful return *)
Theorem C10_failed_operation_is_reported : forall s h first,
  h_pc (H (after_spin_err true s h first) h) = MRet 1.
Proof. intros s h first. unfold after_spin_err. rewrite orb_true_r. rewrite H_setH_same. reflexivity. Qed.
Print Assumptions C10_failed_operation_is_reported.

(** (3) a held lock is taken over only after its expiry: the compare-and-set is prepared only on a
    document whose expiry is in the past *)
Theorem C10_takeover_only_after_expiry : forall ls s h old e1 ident ttl first,
  mrun true minit ls = Some s -> h_pc (H s h) = MCasNext old e1 ident ttl first -> old < m_now s.
Proof.
  intros ls s h old e1 ident ttl first Hr Hpc. exact (proj2 (proj2 (busy_at s h _ (MInv_reachable ls s Hr) Hpc))).
Qed.
Print Assumptions C10_takeover_only_after_expiry.

(** (4) Unlock by a handle whose remembered expiry is the document's frees the key ... *)
Theorem C10_unlock_by_holder : forall s h e i d s',
  h_pc (H s h) = MIdle -> h_detail (H s h) = Some (e, i) -> m_doc s = Some d -> d_exp d = e ->
  mstep true s (UnlockOp h MOk) = Some s' -> m_doc s' = None /\ h_pc (H s' h) = MRet 0.
Proof.
  intros s h e i d s' Hpc Hd Hdoc He Hst. simpl in Hst. rewrite Hpc, Hd, Hdoc in Hst.
  apply Z.eqb_eq in He. rewrite He in Hst. injection Hst as <-. split; [reflexivity|].
  rewrite H_setH_same. reflexivity.
Qed.
Print Assumptions C10_unlock_by_holder.

(** ... while Unlock by a handle whose lock expired and was taken over fails with
    "already unlocked" and leaves the new holder's document untouched *)
Theorem C10_unlock_after_takeover : forall s h e i d s',
  h_pc (H s h) = MIdle -> h_detail (H s h) = Some (e, i) -> m_doc s = Some d -> d_exp d <> e ->
  mstep true s (UnlockOp h MOk) = Some s' -> m_doc s' = Some d /\ h_pc (H s' h) = MRet 3.
Proof.
  intros s h e i d s' Hpc Hd Hdoc He Hst. simpl in Hst. rewrite Hpc, Hd, Hdoc in Hst.
  apply Z.eqb_neq in He. rewrite He in Hst. injection Hst as <-. split; [exact Hdoc|].
  rewrite H_setH_same. reflexivity.
Qed.
Print Assumptions C10_unlock_after_takeover.

(** (5) a waiting Lock returns the context's error when cancelled, and acquires with its next
    attempt once the key is free *)
Theorem C10_cancel_returns_ctx_error : forall s h ttl ident s',
  h_pc (H s h) = MWait ttl ident -> mstep true s (CtxDone h) = Some s' -> h_pc (H s' h) = MRet 2.
Proof. intros s h ttl ident s' Hpc Hst. simpl in Hst. rewrite Hpc in Hst. injection Hst as <-. rewrite H_setH_same. reflexivity. Qed.
Print Assumptions C10_cancel_returns_ctx_error.

Theorem C10_acquires_once_free : forall s h ttl ident s1 s2 s3,
  h_pc (H s h) = MWait ttl ident -> m_doc s = None ->
  mstep true s (SpinTick h) = Some s1 -> mstep true s1 (FindOp h MOk) = Some s2 -> mstep true s2 (InsertOp h MOk) = Some s3 ->
  h_pc (H s3 h) = MRet 0 /\ h_holds (H s3 h) = true /\ exists d, m_doc s3 = Some d /\ d_owner d = h /\ d_exp d = m_now s + ttl.
Proof.
  intros s h ttl ident s1 s2 s3 Hpc Hdoc H1 H2 H3. simpl in H1. rewrite Hpc in H1. injection H1 as <-.
  simpl in H2. rewrite H_setH_same in H2. simpl in H2. rewrite Hdoc in H2. injection H2 as <-.
  simpl in H3. rewrite H_setH_same in H3. simpl in H3. rewrite Hdoc in H3. injection H3 as <-.
  unfold acquired. rewrite H_setH_same. simpl. repeat split. eexists. repeat split.
Qed.
Print Assumptions C10_acquires_once_free.

(** the pinned code: (a) a failed read inside the retry loop makes Lock return nil; (b) the holder's
    own Unlock misses because the stored expiry differs from the remembered one *)
Theorem C10_unfixed_refuted :
  (exists s, mrun false minit [LockCall 0 5000 0; FindOp 0 MOk; InsertOp 0 MOk; LockRet 0 0;
                               LockCall 1 5000 0; FindOp 1 MOk; SpinTick 1; FindOp 1 MFail; LockRet 1 0] = Some s
             /\ h_holds (H s 0) = true /\ h_holds (H s 1) = true /\ m_now s < 5000) /\
  (exists s, mrun false minit [LockCall 0 1000 0; FindOp 0 MOk; InsertOp 0 MOk; LockRet 0 0; MTick 2000;
                               LockCall 1 5000 0; FindOp 1 MOk; MTick 7; CasOp 1 MOk; LockRet 1 0;
                               UnlockOp 1 MOk; UnlockRet 1 3] = Some s /\ m_doc s <> None).
Proof. split; (eexists; split; [vm_compute; reflexivity|]); cbn; repeat split; discriminate. Qed.
Print Assumptions C10_unfixed_refuted.
