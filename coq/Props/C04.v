(** C04 — crash recovery.  After a restart the worker rebuilds its tree from the store
    (InitialDagIns); these theorems say what that fresh tree can hand to the executor.
    Settling after the restart, no second start of a started main action, no phase of a
    finished task and no duplicate records are the monitor clauses (4,_) and (2,2) of
    [EngineMon], evaluated on crash / prefix-restore journals; the first two are also
    theorems over the Engine LTS, where [Crash] is a label ([C04_engine_*] below). *)
From Coq Require Import List ZArith Bool Arith.
From FF Require Import Sx TaskTree TaskTreeFacts StoreModel StoreCheck TaskRun TaskRunFacts Engine EngineFacts EngineSettle EngineRefute.
Import ListNotations.

(** a task persisted as running / success / skipped / failed / canceled / blocked is not executable *)
Theorem C04_not_executable_status : forall t g,
  match status_of t g with
  | TRunning | TSuccess | TSkipped | TFailed | TCanceled | TBlocked => executable t g = false
  | _ => True
  end.
Proof. intros t g. unfold executable. destruct (status_of t g); simpl; auto. Qed.
Print Assumptions C04_not_executable_status.

(** everything a fresh tree pushes is init / retrying / continue / ending *)
Theorem C04_pushed_status : forall t l v,
  executable_ids t = Some l -> In v l -> executable_st (status_of t v) = true.
Proof. exact executable_ids_status. Qed.
Print Assumptions C04_pushed_status.

(** a run never starts the main action except right after its own acknowledged 'running' write:
    in particular a run resumed in 'ending' (program counter Idle) cannot start it *)
Theorem C04_no_main_action_without_running_write : forall p q, acc_step p (TS 1) = Some q -> p = NeedRunStart.
Proof. exact start_run_needs. Qed.
Print Assumptions C04_no_main_action_without_running_write.

(** --- engine level (Engine, see C01.v for the scope; [Crash] is a label of the system: the tree, the
    registered runs, the queued completion events and the deliveries under way are lost at any point,
    the restart rebuilds from the store).  Across crashes: a main action that had started is not started
    again in the same attempt (every history without a stale accepted delivery); the instance is settled
    at every quiescent point, a task left 'running' by the crash being what the watchdog settles
    (histories with [cmdquiet] and [nonoop]). --- *)

Theorem C04_engine_no_second_start_after_restart : forall tasks deps cq nn ls1 s1 ls2 s2 t s',
  run tasks deps true cq nn boot ls1 = Some s1 -> started s1 t = true ->
  run tasks deps true cq nn s1 (Crash :: ls2) = Some s2 -> ~ In (Rearm t) ls2 ->
  step tasks deps true cq nn s2 (MainStart t) = Some s' -> False.
Proof.
  intros tasks deps cq nn ls1 s1 ls2 s2 t s' Hr1 Hst Hr2 Hnr Hs.
  pose proof (inv_history tasks deps cq nn ls1 s1 Hr1) as HI1.
  pose proof (inv_reach tasks deps cq nn (Crash :: ls2) s1 s2 HI1 Hr2) as HI2.
  destruct (main_start_once tasks deps cq nn s2 t s' HI2 Hs) as (Hf & _).
  assert (Hni : ~ In (Rearm t) (Crash :: ls2)) by (intros [H|H]; [discriminate|contradiction]).
  rewrite (started_kept_run tasks deps true cq nn t (Crash :: ls2) s1 s2 Hr2 Hst Hni) in Hf. discriminate.
Qed.
Print Assumptions C04_engine_no_second_start_after_restart.

Theorem C04_engine_settles_across_crashes : forall tasks deps validate (rank : Z -> nat),
  NoDup tasks ->
  (forall t d, In d (deps t) -> (rank d < rank t)%nat) ->
  (forall t d, In t tasks -> In d (deps t) -> In d tasks) ->
  forall ls s, run tasks deps validate true true boot ls = Some s -> Quiescent tasks s ->
  ins s <> IRunning /\
  (ins s = ISuccess <-> forall t, In t tasks -> done (store s t) = true) /\
  (ins s = IFailed -> exists t, In t tasks /\ store s t = SFailed) /\
  (ins s = IBlocked -> exists t, In t tasks /\ store s t = SBlocked).
Proof.
  intros tasks deps validate rank Hnd Hrank Hclosed ls s Hr Hq.
  exact (settled tasks deps s (invq_history tasks deps validate rank Hnd Hrank Hclosed ls s Hr) Hq).
Qed.
Print Assumptions C04_engine_settles_across_crashes.

(** a task the crash left recorded running with no run is settled by the watchdog, nothing else is needed *)
Theorem C04_engine_orphan_settled_by_watchdog : forall tasks deps validate (rank : Z -> nat),
  NoDup tasks ->
  (forall t d, In d (deps t) -> (rank d < rank t)%nat) ->
  (forall t d, In t tasks -> In d (deps t) -> In d tasks) ->
  forall ls s t, run tasks deps validate true true boot ls = Some s -> store s t = SRunning -> runs s t = RNone ->
  exists s', step tasks deps validate true true s (WdFail t) = Some s' /\ ins s' = IFailed /\ store s' t = SFailed.
Proof.
  intros tasks deps validate rank _ _ _ ls s t _ Hst Hrn.
  eexists. cbn. rewrite Hst, Hrn. split; [reflexivity|]. cbn. split; [reflexivity|apply upd_same].
Qed.
Print Assumptions C04_engine_orphan_settled_by_watchdog.

(** the hypotheses are met by a history through a crash in the middle of a main action *)
Example C04_engine_crash_history :
  exists s, run [1]%Z nodeps true true true boot w_crash = Some s /\ Quiescent [1]%Z s /\ ins s = IFailed /\ started s 1%Z = true.
Proof. exact settle_after_crash_met. Qed.
