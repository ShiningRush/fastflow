(** C13 — pre-checks: skipped enables dependents like success, blocked enables nothing.  For the tree and
    for DoPreCheck ([pre_outcomes]), and over the Engine LTS ([C13_engine_*]). *)
From Coq Require Import List ZArith Bool Arith.
From FF Require Import Sx TaskTree TaskTreeFacts StoreModel PreCheck PreCheckFacts Engine EngineFacts EngineSettle EngineRefute.
Import ListNotations.

Theorem C13_skipped_like_success : forall t u,
  status_of t u = TSkipped \/ status_of t u = TSuccess -> gnode_ok t (Some u) = true.
Proof. intros t u [H|H]; simpl; rewrite H; reflexivity. Qed.
Print Assumptions C13_skipped_like_success.

Theorem C13_blocked_enables_nothing : forall t u,
  status_of t u = TBlocked -> gnode_ok t (Some u) = false.
Proof. intros t u H. simpl. rewrite H. reflexivity. Qed.
Print Assumptions C13_blocked_enables_nothing.

(** [pre_outcomes] lists the outcomes DoPreCheck can have, the order of a Go map being arbitrary *)
Theorem C13_terminal_inactive : forall st checks vars share,
  last_state st = true -> pre_outcomes st checks vars share = [].
Proof. intros st checks vars share H. unfold pre_outcomes. rewrite H. reflexivity. Qed.
Print Assumptions C13_terminal_inactive.

(** a continued task is never blocked again by its block checks *)
Theorem C13_continue_never_blocked : forall checks vars share, ~ In 8%Z (pre_outcomes 9 checks vars share).
Proof.
  intros checks vars share H. apply pre_outcomes_spec in H as [_ [k [Hf [_ Hc]]]].
  unfold can_fire in Hc. unfold fire in Hf. destruct (Z.eqb (k_act k) 1), (Z.eqb (k_act k) 2); discriminate.
Qed.
Print Assumptions C13_continue_never_blocked.

(** a met skip check fires whatever the (non-terminal) status, also after continue *)
Theorem C13_met_skip_fires : forall st checks vars share k,
  last_state st = false -> In k checks -> k_act k = 1%Z -> chk_met vars share k = true ->
  In 10%Z (pre_outcomes st checks vars share).
Proof.
  intros st checks vars share k Hl Hk Ha Hm. apply pre_outcomes_spec. split; [exact Hl|]. exists k.
  unfold can_fire, fire. rewrite Ha, Hm. auto.
Qed.
Print Assumptions C13_met_skip_fires.

(** a met block check fires unless the task was continued *)
Theorem C13_met_block_fires : forall st checks vars share k,
  last_state st = false -> st <> 9%Z -> In k checks -> k_act k = 2%Z -> chk_met vars share k = true ->
  In 8%Z (pre_outcomes st checks vars share).
Proof.
  intros st checks vars share k Hl Hs Hk Ha Hm. apply pre_outcomes_spec. split; [exact Hl|]. exists k.
  unfold can_fire, fire. apply Z.eqb_neq in Hs. rewrite Ha, Hm, Hs. auto.
Qed.
Print Assumptions C13_met_block_fires.

(** nothing met => the task runs normally *)
Theorem C13_nothing_met_inactive : forall st checks vars share,
  (forall k, In k checks -> chk_met vars share k = false) -> pre_outcomes st checks vars share = [].
Proof.
  intros st checks vars share H. destruct (pre_outcomes st checks vars share) as [|o r] eqn:E; [reflexivity|].
  destruct (proj1 (pre_outcomes_spec st checks vars share o)) as [_ [k [_ [Hk Hc]]]]; [rewrite E; left; reflexivity|].
  unfold can_fire in Hc. rewrite (H k Hk), andb_false_r in Hc. discriminate Hc.
Qed.
Print Assumptions C13_nothing_met_inactive.

Theorem C13_outcomes_range : forall st checks vars share o,
  In o (pre_outcomes st checks vars share) -> o = 10%Z \/ o = 8%Z \/ o = (-1)%Z.
Proof.
  intros st checks vars share o H. apply pre_outcomes_spec in H as [_ [k [<- _]]]. unfold fire.
  destruct (Z.eqb (k_act k) 1); [auto|]. destruct (Z.eqb (k_act k) 2); auto.
Qed.
Print Assumptions C13_outcomes_range.

(** --- engine level (Engine, see C01.v for the scope).  A push whose skip (block) check fires records the
    verdict and runs nothing; a finished task - skipped included - keeps its status, and enables its
    dependents exactly as success does ([done] is what [parents_done] asks for, C01); a task recorded blocked
    has no run that can still write and has not started its main action in the current attempt; a continued
    task cannot be blocked by the push (that it can still be skipped is
    [EngineFacts.continued_task_can_be_skipped]).  (Which check holds is the environment's choice in
    the model; that the verdict written is one DoPreCheck allows is the theorem about [pre_outcomes] above
    and the monitor clause (13,5) on every journal.) --- *)

Theorem C13_engine_verdict_runs_nothing : forall tasks deps cq nn ls s t sn s',
  run tasks deps true cq nn boot ls = Some s ->
  step tasks deps true cq nn s (PushSkip t sn) = Some s' \/ step tasks deps true cq nn s (PushBlock t sn) = Some s' ->
  (store s' t = SSkipped \/ store s' t = SBlocked) /\ runs s' t = RNone /\ started s' t = false /\
  (forall x, runs s' x = runs s x) /\ (forall x, started s' x = started s x).
Proof.
  intros tasks deps cq nn ls s t sn s' Hr Hs.
  exact (push_verdict_runs_nothing tasks deps cq nn s t sn s' (inv_history tasks deps cq nn ls s Hr) Hs).
Qed.
Print Assumptions C13_engine_verdict_runs_nothing.

Theorem C13_engine_blocked_waits : forall tasks deps cq nn ls s t,
  run tasks deps true cq nn boot ls = Some s -> store s t = SBlocked ->
  started s t = false /\ ~ writing (runs s t).
Proof.
  intros tasks deps cq nn ls s t Hr Hst.
  pose proof (inv_history tasks deps cq nn ls s Hr) as HI.
  split; [eapply blocked_not_started; eassumption|eapply blocked_has_no_run; eassumption].
Qed.
Print Assumptions C13_engine_blocked_waits.

Theorem C13_engine_skipped_is_final : forall tasks deps cq nn ls s l s' t,
  run tasks deps true cq nn boot ls = Some s -> step tasks deps true cq nn s l = Some s' ->
  store s t = SSkipped -> store s' t = SSkipped.
Proof.
  intros tasks deps cq nn ls s l s' t Hr Hs Hst.
  rewrite (done_final tasks deps cq nn s l s' t (inv_history tasks deps cq nn ls s Hr) Hs); [exact Hst|rewrite Hst; reflexivity].
Qed.
Print Assumptions C13_engine_skipped_is_final.

Theorem C13_engine_continue_bypasses_block_only : forall tasks deps v cq nn s t,
  step tasks deps v cq nn s (PushBlock t SContinue) = None.
Proof. intros. cbn. destruct (remove1 (t, SContinue) (pushq s)); reflexivity. Qed.
Print Assumptions C13_engine_continue_bypasses_block_only.

(** under the hypotheses of the settle theorem: of a task recorded skipped or blocked no run is registered and no
    delivery is under way or with a pusher *)
Theorem C13_engine_verdict_task_idle : forall tasks deps validate (rank : Z -> nat),
  NoDup tasks ->
  (forall t d, In d (deps t) -> (rank d < rank t)%nat) ->
  (forall t d, In t tasks -> In d (deps t) -> In d tasks) ->
  forall ls s t, run tasks deps validate true true boot ls = Some s ->
  store s t = SSkipped \/ store s t = SBlocked -> runs s t = RNone /\ ~ inpend s t.
Proof.
  intros tasks deps validate rank Hnd Hrank Hclosed ls s t Hr Hst.
  apply (verdict_task_has_no_run tasks deps s t); [|exact Hst].
  exact (invq_history tasks deps validate rank Hnd Hrank Hclosed ls s Hr).
Qed.
Print Assumptions C13_engine_verdict_task_idle.

(** the hypotheses are met: a history in which a task is blocked, continued and run, and its dependent skipped *)
Example C13_engine_history :
  obs12 (run [1; 2]%Z deps12 true true true boot w_block_continue_1) = Some (true, IBlocked, SBlocked, SInit, false, false) /\
  obs12 (run [1; 2]%Z deps12 true true true boot (w_block_continue_1 ++ w_block_continue_2)) = Some (true, ISuccess, SSuccess, SSkipped, true, false).
Proof. exact settle_with_prechecks_met. Qed.
