(** C08 — leader election.  [Keeper.step U true] is the election protocol of keeper/mongo as
    repaired by the fix commits, at single-database-operation granularity, for any number of
    keepers, with failed and lost-reply operations, clock advances, TTL sweeps, close and crash.
    Journals of 2-4 real keepers interleaved operation by operation must be accepted by it
    (correspondence), and the monitor judges the implementation's own database reports. *)
From Coq Require Import List ZArith Bool Lia Arith.
From FF Require Import Sx Keeper.
Import ListNotations.
Local Open Scope Z_scope.

(** (1) two keepers never both hold an unexpired lease - every reachable state, every label sequence *)
Theorem C08_unique_lease : forall U ls s k1 k2,
  run U true init ls = Some s -> valid U s k1 -> valid U s k2 -> k1 = k2.
Proof. exact C08_unique_lease. Qed.
Print Assumptions C08_unique_lease.

(** (2) a leader with an unexpired lease still owns the record: nobody displaced it, not even
    another keeper's Close *)
Theorem C08_leader_not_displaced : forall U ls s k,
  run U true init ls = Some s -> valid U s k -> rec s = Some {| holder := k; upd := lease (K s k) |}.
Proof. intros U ls s k Hr V. exact (lease_invariant U ls s Hr k V). Qed.
Print Assumptions C08_leader_not_displaced.

(** (3) a keeper that lost the lease reports non-leader after its next election round *)
Theorem C08_lost_lease_reports_non_leader : forall U s k r s',
  kpc (K s k) = GoRenew ->
  (match rec s with Some c => holder c <> k | None => True end) ->
  step U true s (Renew k r) = Some s' -> flag (K s' k) = false.
Proof.
  intros U s k r s' Hpc Hrec Hst. rewrite step_Renew, Hpc in Hst. injection Hst as <-. rewrite K_wrote.
  destruct (rec s) as [c|]; [destruct (Nat.eqb_spec (holder c) k); [contradiction|]|]; reflexivity.
Qed.
Print Assumptions C08_lost_lease_reports_non_leader.

(** (4) when no record exists, or the record is older than the unhealthy period, a keeper that
    performs an uninterrupted round becomes leader *)
Theorem C08_round_on_absent_record_wins : forall U s k s1 s2,
  rec s = None -> kpc (K s k) = Idle -> flag (K s k) = false ->
  step U true s (CampRead k) = Some s1 -> step U true s1 (Insert k Ok) = Some s2 ->
  flag (K s2 k) = true /\ rec s2 = Some {| holder := k; upd := now s |}.
Proof.
  intros U s k s1 s2 Hr Hpc Hf H1 H2. simpl in H1. rewrite Hpc, Hf, Hr in H1. injection H1 as <-.
  rewrite step_Insert, K_setK_same in H2. injection H2 as <-. rewrite K_wrote, Hr. split; reflexivity.
Qed.
Print Assumptions C08_round_on_absent_record_wins.

Theorem C08_round_on_stale_record_wins : forall U s k c s1 s2,
  rec s = Some c -> holder c <> k -> upd c < now s - U -> kpc (K s k) = Idle -> flag (K s k) = false ->
  step U true s (CampRead k) = Some s1 -> step U true s1 (Cas k Ok) = Some s2 ->
  flag (K s2 k) = true /\ rec s2 = Some {| holder := k; upd := now s |}.
Proof.
  intros U s k c s1 s2 Hr Hh Hst Hpc Hf H1 H2. simpl in H1. rewrite Hpc, Hf, Hr in H1.
  destruct (Nat.eqb_spec (holder c) k) as [E|E]; [contradiction|].
  destruct (Z.ltb_spec (upd c) (now s - U)) as [L|L]; [|lia]. injection H1 as <-.
  rewrite step_Cas, K_setK_same in H2. injection H2 as <-.
  rewrite K_wrote, Hr, Nat.eqb_refl, Z.eqb_refl. split; reflexivity.
Qed.
Print Assumptions C08_round_on_stale_record_wins.

(** the code at the pinned commit (compare-and-set on the worker key only): two unexpired leaders *)
Theorem C08_unfixed_refuted : exists s, run 5 false init witness = Some s /\ two_leaders 5 s = true.
Proof. eexists; split; [vm_compute; reflexivity | vm_compute; reflexivity]. Qed.
Print Assumptions C08_unfixed_refuted.
