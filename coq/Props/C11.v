(** C11 — commands.  [admission] is the admission decision of the commander (executeCommand + the
    Retry / Continue / Cancel methods of the instance) as repaired by the fix commit; the real
    commander is compared with it over the real store and real membership (family commander).
    Execution by the owning worker (exact targets, nothing else changed, executed once then
    cleared) is judged on engine journals by monitor clauses (11,1) (11,2). *)
From Coq Require Import List ZArith Bool Arith.
From FF Require Import Sx StoreModel StoreCheck Commander CommanderFacts.
Import ListNotations.
Local Open Scope Z_scope.

Theorem C11_reject_empty : forall s kind alive, admission s kind [] alive = CRej EEmpty.
Proof. reflexivity. Qed.
Print Assumptions C11_reject_empty.

Theorem C11_reject_unknown_ids : forall s kind ids alive,
  ids <> [] -> length ids <> length (found_tasks s ids) -> admission s kind ids alive = CRej ENotFound.
Proof.
  intros s kind ids alive Hne Hl. unfold admission. destruct ids as [|x r]; [congruence|].
  destruct (Nat.eqb_spec (length (x :: r)) (length (found_tasks s (x :: r)))); [contradiction|reflexivity].
Qed.
Print Assumptions C11_reject_unknown_ids.

(** an accepted command: all ids name tasks of ONE instance, which has no pending command; for cancel
    it is running and its worker alive; for retry/continue the stored worker is alive, or it is
    replaced by an alive one (and some worker is alive) *)
Theorem C11_accepted_spec : forall s kind ids alive ws cmd,
  admission s kind ids alive = CAcc ws cmd ->
  ids <> [] /\ cmd = (kind, ids) /\
  exists t0 i, In t0 (found_tasks s ids) /\ (forall t, In t (found_tasks s ids) -> t_ins t = t_ins t0) /\
    find (fun i => Z.eqb (i_id i) (t_ins t0)) (insts s) = Some i /\ i_cmd i = None /\
    (kind = 2 -> i_status i = 3 /\ zin (i_worker i) alive = true /\ ws = [i_worker i]) /\
    (kind <> 2 -> (zin (i_worker i) alive = true /\ ws = [i_worker i]) \/ (zin (i_worker i) alive = false /\ ws = alive /\ alive <> [])).
Proof.
  intros s kind ids alive ws cmd H.
  destruct (admission_cases s kind ids alive) as [[i T]|[e E]]; [|congruence].
  rewrite (admission_target _ kind _ alive _ T) in H. apply decide_accepted in H. destruct H as (Hcmd & Hc & H2 & Hn2).
  destruct T as [t0 ft Hne Hf _ Hsame Hi]. rewrite Hf. split; [exact Hne|]. split; [exact Hcmd|].
  exists t0, i. split; [left; reflexivity|]. split; [exact Hsame|]. split; [exact Hi|]. split; [exact Hc|]. split; [exact H2|exact Hn2].
Qed.
Print Assumptions C11_accepted_spec.

Theorem C11_reject_pending : forall s kind ids alive t0 ft i c,
  ids <> [] -> found_tasks s ids = t0 :: ft -> length ids = length (t0 :: ft) ->
  (forall t, In t (t0 :: ft) -> t_ins t = t_ins t0) ->
  find (fun i => Z.eqb (i_id i) (t_ins t0)) (insts s) = Some i -> i_cmd i = Some c ->
  zin (i_worker i) alive = true -> (kind = 2 -> i_status i = 3) ->
  admission s kind ids alive = CRej EPending.
Proof.
  intros s kind ids alive t0 ft i c Hne Hf Hl Hsame Hi Hc Ha Hrun.
  rewrite (admission_target s kind ids alive i (target_intro _ _ _ t0 ft Hne Hf Hl Hsame Hi)).
  unfold decide. rewrite Ha, Hc. simpl. destruct (Z.eqb_spec kind 2) as [Hk|Hk]; [|reflexivity].
  rewrite (Hrun Hk). reflexivity.
Qed.
Print Assumptions C11_reject_pending.

Theorem C11_reject_cancel_dead_worker : forall s ids alive t0 ft i,
  ids <> [] -> found_tasks s ids = t0 :: ft -> length ids = length (t0 :: ft) ->
  (forall t, In t (t0 :: ft) -> t_ins t = t_ins t0) ->
  find (fun i => Z.eqb (i_id i) (t_ins t0)) (insts s) = Some i -> zin (i_worker i) alive = false ->
  admission s 2 ids alive = CRej EDeadWorker.
Proof.
  intros s ids alive t0 ft i Hne Hf Hl Hsame Hi Ha.
  rewrite (admission_target s 2 ids alive i (target_intro _ _ _ t0 ft Hne Hf Hl Hsame Hi)).
  unfold decide. rewrite Ha. reflexivity.
Qed.
Print Assumptions C11_reject_cancel_dead_worker.

Theorem C11_reject_no_alive : forall s kind ids t0 ft i,
  kind <> 2 -> ids <> [] -> found_tasks s ids = t0 :: ft -> length ids = length (t0 :: ft) ->
  (forall t, In t (t0 :: ft) -> t_ins t = t_ins t0) ->
  find (fun i => Z.eqb (i_id i) (t_ins t0)) (insts s) = Some i ->
  admission s kind ids [] = CRej ENoAlive.
Proof.
  intros s kind ids t0 ft i Hk Hne Hf Hl Hsame Hi.
  rewrite (admission_target s kind ids [] i (target_intro _ _ _ t0 ft Hne Hf Hl Hsame Hi)).
  unfold decide. apply Z.eqb_neq in Hk. rewrite Hk. reflexivity.
Qed.
Print Assumptions C11_reject_no_alive.
