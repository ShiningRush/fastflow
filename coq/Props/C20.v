(** C20 — shutdown.  The synchronisation skeleton of DefExecutor and DefParser (locks, channels, wait
    groups; [Shutdown]) as transition systems over counters: every interleaving of pushes, hand-offs,
    action ends, queued parser events (queue empty, partly full, full) and Close is a run of these
    systems.  Safety: no send on a closed channel; Close returns only after every started action run has
    ended and stored its status; afterwards nothing runs and nothing starts.  Liveness: while Close is in
    progress an internal step is always enabled and every internal step decreases a measure, so Close
    returns on every schedule in which enabled goroutines keep running.  The two earlier lock disciplines
    of the parser have reachable deadlocks (witnesses checked by computation); both hangs were reproduced
    on the real code (fix commits 57f3a0c, 601f589).

    The tie to the code: [ShutdownCheck] compares the skeleton of each modelled function, read from the
    current source text on every run, with the one the model was written from; the engine scenarios
    (kinds close, closepre, closefull, crash) run the real Close at every scheduling point and the
    monitor clauses (20,_) of [EngineMon] check the journals (start after Close returned, run alive when it
    returned, unstored outcome, hang); 'resumed exactly as after a crash' is clauses (4,_) and (2,2) on
    the same journals after the restart. *)
From Coq Require Import List Arith Bool.
From FF Require Import Shutdown ShutdownFacts.
Import ListNotations.

Theorem C20_executor_no_send_on_closed_channel : forall workers, 0 < workers -> forall ls s,
  erun (einit workers) ls = Some s -> e_panicked s = false.
Proof. intros workers _ ls s H. exact (ei_panicked workers s (einv_reachable workers ls s H)). Qed.
Print Assumptions C20_executor_no_send_on_closed_channel.

(** when Close has returned every started action run has ended and its status was stored (workerDo
    returned), every worker and the init goroutine are gone *)
Theorem C20_executor_close_waits_for_runs : forall workers, 0 < workers -> forall ls s,
  erun (einit workers) ls = Some s -> e_cl s = ERet ->
  e_started s = e_stored s /\ e_run s = 0 /\ e_idle s = 0 /\ e_gone s = workers /\ e_init s = IExited.
Proof.
  intros workers _ ls s H. exact (einv_returned workers s (einv_reachable workers ls s H)).
Qed.
Print Assumptions C20_executor_close_waits_for_runs.

(** and whatever is pushed afterwards, no action run is started any more *)
Theorem C20_executor_nothing_starts_after_close : forall workers, 0 < workers -> forall ls1 ls2 s s',
  erun (einit workers) ls1 = Some s -> e_cl s = ERet -> erun s ls2 = Some s' ->
  e_cl s' = ERet /\ e_started s' = e_started s /\ e_run s' = 0.
Proof.
  intros workers _ ls1 ls2 s s' H HC H2.
  destruct (executor_returned_for_good workers ls2 s s' (einv_reachable workers ls1 s H) HC H2) as (HI & HC' & HS).
  exact (conj HC' (conj HS (proj2 (ei_ret workers s' HI HC')))).
Qed.
Print Assumptions C20_executor_nothing_starts_after_close.

(** Close does not get stuck (given at least one worker) ... *)
Theorem C20_executor_close_progress : forall workers, 0 < workers -> forall ls s,
  erun (einit workers) ls = Some s -> eclosing s = true -> eenabled s = true.
Proof.
  intros workers Hw ls s Hr. exact (executor_progress workers s Hw (einv_reachable workers ls s Hr)).
Qed.
Print Assumptions C20_executor_close_progress.

(** ... every run of internal steps while it is in progress is no longer than the measure, and Close can return *)
Theorem C20_executor_close_terminates : forall workers, 0 < workers -> forall ls s,
  erun (einit workers) ls = Some s -> eclosing s = true ->
  (forall ls' s', ecrun s ls' = Some s' -> length ls' <= emeasure s) /\
  (exists ls' s', Forall (fun l => einternal l = true) ls' /\ erun s ls' = Some s' /\ e_cl s' = ERet /\ length ls' <= emeasure s).
Proof.
  intros workers Hw ls s Hr Hc.
  pose proof (einv_reachable workers ls s Hr) as HI. split.
  - intros ls' s' H. exact (executor_runs_bounded workers ls' s s' HI H).
  - exact (executor_close_returns workers (emeasure s) s Hw HI Hc (le_n _)).
Qed.
Print Assumptions C20_executor_close_terminates.

(** the parser; variant 2 is the current code *)
Theorem C20_parser_no_send_on_closed_channel : forall cap fan ls s,
  prun 2 cap fan pinit ls = Some s -> panicked s = false.
Proof. intros cap fan ls s H. exact (pi_panicked cap s (pi_reachable cap fan ls s H)). Qed.
Print Assumptions C20_parser_no_send_on_closed_channel.

(** once Close has returned the worker has exited, its queue is empty, nobody waits to send, and that
    stays so whatever calls arrive afterwards *)
Theorem C20_parser_closed_for_good : forall cap fan ls1 ls2 s s',
  prun 2 cap fan pinit ls1 = Some s -> cl s = CRet -> prun 2 cap fan s ls2 = Some s' ->
  cl s' = CRet /\ wk s' = WExited /\ q s' = 0 /\ bs s' = 0 /\ bw s' = 0 /\ rd s' = 0 /\ wr s' = false.
Proof.
  intros cap fan ls1 ls2 s s' H HC H2.
  destruct (parser_returned_for_good cap fan ls2 s s' (pi_reachable cap fan ls1 s H) HC H2) as (HI & HC').
  exact (conj HC' (pi_returned cap s' HI HC')).
Qed.
Print Assumptions C20_parser_closed_for_good.

Theorem C20_parser_close_progress : forall cap fan ls s,
  prun 2 cap fan pinit ls = Some s -> closing s = true -> enabled 2 cap fan s = true.
Proof.
  intros cap fan ls s Hr. exact (parser_progress cap fan s (pi_reachable cap fan ls s Hr)).
Qed.
Print Assumptions C20_parser_close_progress.

Theorem C20_parser_close_terminates : forall cap fan ls s,
  prun 2 cap fan pinit ls = Some s -> closing s = true ->
  (forall ls' s', crun cap fan s ls' = Some s' -> length ls' <= measure fan s) /\
  (exists ls' s', Forall (fun l => internal l = true) ls' /\ prun 2 cap fan s ls' = Some s' /\ cl s' = CRet /\ length ls' <= measure fan s).
Proof.
  intros cap fan ls s Hr Hc.
  pose proof (pi_reachable cap fan ls s Hr) as HI. split.
  - intros ls' s' H. exact (parser_runs_bounded cap fan ls' s s' HI H).
  - exact (parser_close_returns cap fan (measure fan s) s HI Hc (le_n _)).
Qed.
Print Assumptions C20_parser_close_terminates.

(** the two earlier lock disciplines deadlock (capacity 50 as in the code) *)
Theorem C20_pinned_parser_close_refuted :
  exists ls s, prun 0 50 60 pinit ls = Some s /\ closing s = true /\
               forall ls' s', prun 0 50 60 s ls' = Some s' -> cl s' <> CRet.
Proof.
  destruct pinned_parser_close_deadlocks as (s & Hr & Hd).
  exists witness0, s. split; [exact Hr|]. split.
  - apply (dead_stuck 0 50 60 s Hd).
  - intros ls' s'. exact (dead_never_returns 0 50 60 s ls' s' Hd).
Qed.
Print Assumptions C20_pinned_parser_close_refuted.

Theorem C20_full_queue_parser_close_refuted :
  exists ls s, prun 1 50 60 pinit ls = Some s /\ closing s = true /\ q s = 50 /\
               forall ls' s', prun 1 50 60 s ls' = Some s' -> cl s' <> CRet.
Proof.
  destruct full_queue_parser_close_deadlocks as (s & Hr & Hd & Hq).
  exists witness1, s. split; [exact Hr|]. split; [|split].
  - apply (dead_stuck 1 50 60 s Hd).
  - exact Hq.
  - intros ls' s'. exact (dead_never_returns 1 50 60 s ls' s' Hd).
Qed.
Print Assumptions C20_full_queue_parser_close_refuted.

(** non-vacuity: a reachable state of the current code in which Close is in progress with a full queue and a
    sender waiting for room *)
Example C20_nonvacuous :
  exists s, prun 2 50 60 pinit witness2 = Some s /\ bs s = 1 /\ q s = 50 /\ closing s = true /\ stuck 2 50 60 s = false.
Proof. exact witness2_current. Qed.
