(** C03 — verdict lemmas (pure, every tree): a failed / blocked / running verdict of
    ComputeStatus always has a witness task in that state.  Settling and
    containment are judged on every engine journal by the monitor clauses (3,_)
    of [EngineMon]; settling is also proved over the Engine LTS ([C03_engine_*] below),
    and [C03_executor_*] at the end are about the executor's registration protocol (ExecReg). *)
From Coq Require Import List ZArith Bool Arith Lia.
From FF Require Import Sx TaskTree TaskTreeFacts Engine EngineFacts EngineSettle EngineRefute EngineLive.
Import ListNotations.

Theorem C03_failed_has_witness : forall t v,
  compute_status t = Some (TrFailed, v) -> status_of t v = TFailed \/ status_of t v = TCanceled.
Proof. exact (fun t v => compute_status_witness t (TrFailed, v)). Qed.
Print Assumptions C03_failed_has_witness.

Theorem C03_blocked_has_witness : forall t v,
  compute_status t = Some (TrBlocked, v) -> status_of t v = TBlocked.
Proof. exact (fun t v => compute_status_witness t (TrBlocked, v)). Qed.
Print Assumptions C03_blocked_has_witness.

Theorem C03_running_has_witness : forall t v,
  compute_status t = Some (TrRunning, v) -> is_active_st (status_of t v) = true.
Proof. exact (fun t v => compute_status_witness t (TrRunning, v)). Qed.
Print Assumptions C03_running_has_witness.

(** --- engine level (Engine, see C01.v for the scope): whenever the owning worker has nothing in flight for
    the instance, no command is stored or being executed and no task is recorded running, the instance is
    settled and the verdict agrees with its tasks (success exactly when every task is success or skipped,
    failed only with a failed task, blocked only with a blocked task) - for every DAG (unique ids, dependencies among the tasks,
    acyclic as witnessed by a rank), every outcome of every phase, every interleaving of runs, parser and
    command watcher, every crash point and every watchdog intervention.  Hypotheses on the history: commands
    are issued and picked up only while nothing is in flight ([cmdquiet]) and every executed command re-armed
    a task ([nonoop]); nothing is assumed about deliveries ([validate] arbitrary).  Each hypothesis is
    necessary: the three [..._refuted] theorems are histories of the unrestricted system ending quiescent
    and unsettled or wrongly settled; all three were replayed on the real code (known findings
    F-stale-completion-event, F-retry-in-unregister-window, F-cmd-crash-noop / F-noop-cmd). --- *)

Theorem C03_engine_settles_and_agrees : forall tasks deps validate (rank : Z -> nat),
  NoDup tasks ->
  (forall t d, In d (deps t) -> (rank d < rank t)%nat) ->
  (forall t d, In t tasks -> In d (deps t) -> In d tasks) ->
  forall ls s, run tasks deps validate true true boot ls = Some s -> Quiescent tasks s ->
  ins s <> IRunning /\
  (ins s = ISuccess <-> forall t, In t tasks -> done (store s t) = true) /\
  (ins s = IFailed -> exists t, In t tasks /\ store s t = SFailed) /\
  (ins s = IBlocked -> exists t, In t tasks /\ store s t = SBlocked).
Proof.
  intros tasks deps validate rank Hnd Hrank Hclosed ls s Hr Hq.
  apply (settled tasks deps s); [|exact Hq].
  exact (invq_history tasks deps validate rank Hnd Hrank Hclosed ls s Hr).
Qed.
Print Assumptions C03_engine_settles_and_agrees.

(** ... and the engine never hangs with work in flight: in every state of such a history that is not quiet - or in
    which a re-initialisation is due - a step of the engine itself is enabled (no command, crash or watchdog is
    needed).  So the engine can only come to rest in the settled states of the theorem above. *)
Theorem C03_engine_never_stuck : forall tasks deps validate (rank : Z -> nat),
  NoDup tasks ->
  (forall t d, In d (deps t) -> (rank d < rank t)%nat) ->
  (forall t d, In t tasks -> In d (deps t) -> In d tasks) ->
  forall ls s, run tasks deps validate true true boot ls = Some s ->
  quiet tasks s = false \/ ph s = PInit \/ ph s = PDown ->
  exists l s', operator l = false /\ step tasks deps validate true true s l = Some s'.
Proof.
  intros tasks deps validate rank Hnd Hrank Hclosed ls s Hr Hq.
  apply (engine_not_stuck tasks deps validate s); [|exact Hq].
  exact (invq_history tasks deps validate rank Hnd Hrank Hclosed ls s Hr).
Qed.
Print Assumptions C03_engine_never_stuck.

(** ... only finitely many steps of its own can follow one another (a measure - a weight per task read off its
    status and the place of its token, plus a term for a pending re-initialisation - strictly decreases with each;
    the steps of the operator / command watcher, the watchdog and a crash are the environment's) ... *)
Theorem C03_engine_own_steps_bounded : forall tasks deps validate (rank : Z -> nat),
  NoDup tasks ->
  (forall t d, In d (deps t) -> (rank d < rank t)%nat) ->
  (forall t d, In t tasks -> In d (deps t) -> In d tasks) ->
  forall ls0 s ls s', run tasks deps validate true true boot ls0 = Some s ->
  run tasks deps validate true true s ls = Some s' -> forallb (fun l => negb (operator l)) ls = true ->
  (length ls + measure tasks s' <= measure tasks s)%nat.
Proof.
  intros tasks deps validate rank Hnd Hrank Hclosed ls0 s ls s' Hr0 Hr Hall.
  apply (engine_steps_bounded tasks deps validate rank Hnd Hrank Hclosed ls s s'); try assumption.
  exact (invq_history tasks deps validate rank Hnd Hrank Hclosed ls0 s Hr0).
Qed.
Print Assumptions C03_engine_own_steps_bounded.

(** ... and where they end - no command stored, no task left recorded running - the instance is settled.  This is
    "every started instance settles" for the restricted system under weak fairness of the engine's goroutines: its
    own steps are finitely many, one is enabled as long as anything is in flight, and rest is a settled state. *)
Theorem C03_engine_rest_is_settled : forall tasks deps validate (rank : Z -> nat),
  NoDup tasks ->
  (forall t d, In d (deps t) -> (rank d < rank t)%nat) ->
  (forall t d, In t tasks -> In d (deps t) -> In d tasks) ->
  forall ls s, run tasks deps validate true true boot ls = Some s ->
  (forall l s', step tasks deps validate true true s l = Some s' -> operator l = true) ->
  cmd s = false -> (forall t, In t tasks -> store s t <> SRunning) ->
  ins s <> IRunning /\
  (ins s = ISuccess <-> forall t, In t tasks -> done (store s t) = true) /\
  (ins s = IFailed -> exists t, In t tasks /\ store s t = SFailed) /\
  (ins s = IBlocked -> exists t, In t tasks /\ store s t = SBlocked).
Proof.
  intros tasks deps validate rank Hnd Hrank Hclosed ls s Hr Hrest Hc Hnr.
  apply (rest_is_settled tasks deps validate s); try assumption.
  exact (invq_history tasks deps validate rank Hnd Hrank Hclosed ls s Hr).
Qed.
Print Assumptions C03_engine_rest_is_settled.

Theorem C03_engine_stale_event_refuted :
  exists s, run [1]%Z nodeps true false true boot w_stale_event = Some s /\
            Quiescent [1]%Z s /\ ins s = IFailed /\ store s 1%Z = SInit.
Proof. exact stale_event_refuted. Qed.
Print Assumptions C03_engine_stale_event_refuted.

Theorem C03_engine_unregister_window_refuted :
  exists s, run [1]%Z nodeps true false true boot w_window = Some s /\
            Quiescent [1]%Z s /\ ins s = IFailed /\ store s 1%Z = SRetrying.
Proof. exact unregister_window_refuted. Qed.
Print Assumptions C03_engine_unregister_window_refuted.

Theorem C03_engine_noop_after_crash_refuted :
  exists s, run [1]%Z nodeps true true false boot w_noop_after_crash = Some s /\
            Quiescent [1]%Z s /\ ins s = IRunning /\ store s 1%Z = SRetrying.
Proof. exact noop_after_crash_refuted. Qed.
Print Assumptions C03_engine_noop_after_crash_refuted.

(** The executor's registration protocol (ExecReg: Push, init goroutine, workers, cancel map; deliveries aliased
    to task objects, any number of workers, every history).  With nothing in the executor's hands nothing is
    registered, so a re-armed task is accepted; the executor only ever waits behind running actions. *)
From FF Require Import ExecReg ExecRegFacts.

Theorem C03_executor_idle_accepts_every_task : forall nworkers f ls s d r,
  xrun nworkers false (xinit f) ls = Some s -> idle s = true -> initq s = d :: r ->
  exists s', xstep nworkers false s XInitTake = Some s' /\ held s' = Some d /\ reg s' (dt d) = true.
Proof.
  intros nworkers f ls s d r H I Q. pose proof (idle_means_unregistered nworkers _ _ _ (dt d) H I) as Rg.
  unfold idle in I. cbn. destruct (held s) eqn:Hh; [discriminate|]. rewrite Q, Rg.
  eexists; split; [reflexivity|]. cbn. split; [reflexivity|]. unfold upd. rewrite Z.eqb_refl. reflexivity.
Qed.
Print Assumptions C03_executor_idle_accepts_every_task.

(** with no action running (and at least one worker) everything pushed has been dealt with *)
Theorem C03_executor_no_run_no_backlog : forall nworkers f ls s,
  (0 < nworkers)%nat -> xrun nworkers false (xinit f) ls = Some s -> internal_enabled nworkers s = false ->
  work s = [] -> held s = None /\ initq s = [].
Proof.
  intros nworkers f ls s Pn H E W. destruct (executor_waits_only_for_runs nworkers _ _ _ H E) as [_ [A B]].
  assert (Hh : held s = None). { destruct (held s) eqn:X; [|reflexivity]. rewrite W in A. cbn in A. assert (0 = nworkers)%nat by (apply A; discriminate). lia. }
  split; [exact Hh|]. destruct (initq s) eqn:Q; [reflexivity|]. exfalso. apply B; [discriminate | exact Hh].
Qed.
Print Assumptions C03_executor_no_run_no_backlog.

(** the code before fix de0061a: a refused delivery stays registered (the duppath history) *)
Theorem C03_executor_leak_refuted :
  exists s, xrun 1 true (xinit (fun _ => SContinue)) w_leak = Some s /\ idle s = true /\ reg s 5%Z = true.
Proof. eexists; split; [vm_compute; reflexivity | split; vm_compute; reflexivity]. Qed.
Print Assumptions C03_executor_leak_refuted.

(** the executor's own steps (init goroutine, hand-over, status check) are bounded by a measure: it comes to rest,
    and at rest it waits only behind running actions (C03_executor_no_run_no_backlog) *)
From FF Require Import ExecRegLive.
Theorem C03_executor_own_steps_bounded : forall nworkers leak ls s s',
  forallb is_internal ls = true -> xrun nworkers leak s ls = Some s' -> (length ls + xmeasure s' <= xmeasure s)%nat.
Proof.
  intros nworkers leak ls s s' I H. apply (Lts.run_bounded (xstep nworkers leak) (fun _ => True) is_internal xmeasure) with (ls := ls); auto.
  intros a l b _ E Il. exact (own_step_decreases nworkers leak a l b Il E).
Qed.
Print Assumptions C03_executor_own_steps_bounded.
