(** C16 — DAG validation: accepted iff ids unique, dependencies exist, graph acyclic.
    [build_gen true] is the model of BuildRootNode as repaired by the "fix:" commit,
    [build_root_unfixed] the code at the pinned commit.  [valid_dag t] =
    NoDup ids /\ every dependency names a task /\ t <> [] /\ a rank function exists
    along which every dependency strictly decreases (which excludes every
    dependency path from a task to itself, [C16_ranked_acyclic]). *)
From Coq Require Import List ZArith Bool Arith Lia.
From FF Require Import Sx TaskTree TaskTreeFacts TreeFuel.
From FF Require Engine EngineSettle.
Import ListNotations.

(** Accepted => valid, for every task list and every fuel. *)
Theorem C16_accept_sound : forall fuel t, build_gen true fuel t = None -> valid_dag t.
Proof. exact build_accept_sound. Qed.
Print Assumptions C16_accept_sound.

(** Valid => accepted, for every task list, provided the explicit fuel of the
    level-order check did not run out (the correspondence run reports any
    out-of-fuel outcome of the model as a mismatch). *)
Theorem C16_accept_complete : forall fuel t,
  valid_dag t -> cycle_check fuel t <> None -> build_gen true fuel t = None.
Proof. exact build_accept_complete. Qed.
Print Assumptions C16_accept_complete.

(** The two together: the decision is exactly validity. *)
Theorem C16_accept_iff : forall fuel t, cycle_check fuel t <> None ->
  (build_gen true fuel t = None <-> valid_dag t).
Proof.
  intros fuel t Hf; split; [apply build_accept_sound|intros H; apply build_accept_complete; assumption].
Qed.
Print Assumptions C16_accept_iff.

(** The fuel the model really uses ([default_fuel t] = number of tasks + 2 levels) never runs out on a valid
    DAG: every node queued in level k ends a dependency chain of k+1 distinct tasks. *)
Theorem C16_fuel_adequate : forall t, valid_dag t -> cycle_check (default_fuel t) t <> None.
Proof. exact valid_fuel_adequate. Qed.
Print Assumptions C16_fuel_adequate.

(** Hence, with no hypothesis about fuel: the repaired BuildRootNode accepts exactly the valid DAGs. *)
Theorem C16_build_root_iff : forall t, build_root t = None <-> valid_dag t.
Proof. exact build_root_iff. Qed.
Print Assumptions C16_build_root_iff.

(** A ranked graph has no cycle anywhere. *)
Theorem C16_ranked_acyclic : forall t, ranked t -> forall a, ~ dep_path t a a.
Proof.
  intros t [rank Hr] a Hp.
  assert (forall x y, dep_path t x y -> rank y < rank x).
  { intros x y P. induction P as [n d Hn Hd|x y z _ IH1 _ IH2]; [apply Hr; assumption|lia]. }
  specialize (H a a Hp). lia.
Qed.
Print Assumptions C16_ranked_acyclic.

(** A valid DAG has at least one task without dependencies. *)
Theorem C16_valid_has_start : forall t,
  NoDup (gids t) -> closed t -> t <> [] -> ranked t -> children t None <> [].
Proof. exact ranked_has_start. Qed.
Print Assumptions C16_valid_has_start.

(** Refutation for the code at the pinned commit: it accepted a task list with a
    cycle that no start node reaches (the witness replayed against the real
    CreateDag is the finding repaired by the fix commit). *)
Theorem C16_unfixed_refuted :
  exists t a, build_root_unfixed t = None /\ dep_path t a a.
Proof. exists rootless_cycle_witness, 1%Z. exact unfixed_accepts_cycle. Qed.
Print Assumptions C16_unfixed_refuted.

Theorem C16_fixed_rejects_witness : build_root rootless_cycle_witness = Some BCycle.
Proof. vm_compute. reflexivity. Qed.
Print Assumptions C16_fixed_rejects_witness.

(** The consequence the property draws from validation, end to end (C16 + C03): for every task list that
    BuildRootNode accepts, the engine (Engine LTS, histories with commands at quiescent points that re-arm a
    task) settles the instance at every quiescent point, and records it success only when every task of the
    DAG ran to success or was skipped - no task of an accepted DAG is out of the scheduler's reach. *)
Theorem C16_accepted_dag_settles : forall (t : tree), build_root t = None ->
  forall validate ls s, Engine.run (gids t) (deps_of t) validate true true (Engine.boot) ls = Some s ->
  EngineSettle.Quiescent (gids t) s ->
  Engine.ins s <> Engine.IRunning /\
  (Engine.ins s = Engine.ISuccess <-> forall x, In x (gids t) -> Engine.done (Engine.store s x) = true) /\
  (Engine.ins s = Engine.IFailed -> exists x, In x (gids t) /\ Engine.store s x = Engine.SFailed) /\
  (Engine.ins s = Engine.IBlocked -> exists x, In x (gids t) /\ Engine.store s x = Engine.SBlocked).
Proof.
  intros t Hacc validate ls s Hr Hq.
  apply build_root_iff in Hacc. destruct (valid_dag_engine_hyps t Hacc) as (ND & (rank & Hrank) & Hcl).
  apply (EngineSettle.settled (gids t) (deps_of t) s); [|exact Hq].
  exact (EngineSettle.invq_history (gids t) (deps_of t) validate rank ND Hrank Hcl ls s Hr).
Qed.
Print Assumptions C16_accepted_dag_settles.
