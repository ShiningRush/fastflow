(** C09 — membership.  Heartbeat part of the Keeper LTS and the Init start-up protocol. *)
From Coq Require Import List ZArith Bool Lia Arith.
From FF Require Import Sx Keeper.
Import ListNotations.
Local Open Scope Z_scope.

(** AliveNodes / IsAlive report exactly the workers whose heartbeat is younger than the period *)
Theorem C09_alive_set_spec : forall U s n k,
  In k (alive_set U s n) <-> (k < n)%nat /\ exists u, HB s k = Some u /\ now s - u < U.
Proof.
  intros U s n k. unfold alive_set. rewrite filter_In, in_seq, alive_iff.
  split; intros [Hk Ha]; (split; [lia|exact Ha]).
Qed.
Print Assumptions C09_alive_set_spec.

(** a worker that has just stored a heartbeat is a member *)
Theorem C09_beat_makes_alive : forall U, 0 < U -> forall s k s', step U true s (Beat k Ok) = Some s' -> alive U s' k = true.
Proof.
  intros U Upos s k s' H. injection H as <-. apply alive_iff. exists (now s).
  split; [apply HB_setHb_same|simpl; lia].
Qed.
Print Assumptions C09_beat_makes_alive.

(** and stays one as long as it beats again before the period elapses *)
Theorem C09_alive_until_period : forall U s k u, HB s k = Some u -> now s - u < U -> alive U s k = true.
Proof. intros U s k u E L. apply alive_iff. exists u. auto. Qed.
Print Assumptions C09_alive_until_period.

(** a crashed worker (no more beats) is not reported once the period has elapsed *)
Theorem C09_silent_worker_expires : forall U s k u, HB s k = Some u -> U <= now s - u -> alive U s k = false.
Proof.
  intros U s k u E L. apply not_true_is_false. intros (u' & E' & L')%alive_iff.
  rewrite E in E'. injection E' as <-. lia.
Qed.
Print Assumptions C09_silent_worker_expires.

(** a gracefully closed worker disappears at once *)
Theorem C09_close_removes_at_once : forall U s k s', step U true s (CloseBeat k) = Some s' -> alive U s' k = false.
Proof.
  intros U s k s' H. injection H as <-. apply not_true_is_false. intros (u & E & _)%alive_iff.
  rewrite HB_setHb_same in E. discriminate.
Qed.
Print Assumptions C09_close_removes_at_once.

(** a store-side TTL sweep never changes the reported set *)
Theorem C09_sweep_keeps_alive_set : forall U s k s' j,
  step U true s (SweepHb k) = Some s' -> alive U s' j = alive U s j.
Proof.
  intros U s k s' j.
  simpl. destruct (HB s k) as [u|] eqn:E; [|discriminate].
  destruct (Z.ltb_spec (u + U) (now s)) as [L|L]; [|discriminate]. intros H; injection H as <-.
  unfold alive. rewrite HB_setHb. destruct (Nat.eqb_spec k j) as [<-|_]; [|reflexivity].
  (* the swept heartbeat was no longer young *)
  rewrite E. symmetry. apply Z.ltb_ge. lia.
Qed.
Print Assumptions C09_sweep_keeps_alive_set.

(** the worker is registered before its Init returns, and the start-up counter never goes negative *)
Theorem C09_init_returns_registered : forall ls s,
  irun true ist0 ls = Some s -> returned s = true -> hb_stored s = true /\ panicked s = false.
Proof.
  intros ls s.
  rewrite irun_run. intros Hr Hret. destruct (Lts.run_inv (istep true) J J_step ls _ _ J_init Hr) as (Hp & _ & _ & Hy). exact (conj (Hy Hret) Hp).
Qed.
Print Assumptions C09_init_returns_registered.

(** the pinned code: election round, failed heartbeat, second election round release Init with no
    heartbeat stored; one more successful heartbeat then drives the counter negative *)
Theorem C09_init_protocol_unfixed_refuted :
  (exists s, irun false ist0 [IElectRound; IBeatFail; IElectRound; IReturn] = Some s /\ returned s = true /\ hb_stored s = false) /\
  (exists s, irun false ist0 [IElectRound; IBeatFail; IElectRound; IBeatOk] = Some s /\ panicked s = true).
Proof. split; (eexists; split; [vm_compute; reflexivity|]); repeat split. Qed.
Print Assumptions C09_init_protocol_unfixed_refuted.
