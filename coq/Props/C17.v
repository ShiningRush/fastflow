(** C17 — variables and parameters.  [dag_run_vars] = Dag.Run's variable resolution,
    [render] = DagInstanceVars.Render over the parameter tree (token level: literal chunks,
    {{name}} placeholders, substituted values).  The same trees go through the real code in
    memory, after the DAG was reloaded from the store, and through the real watch round into
    task_instance.params (family vars).  Execution-time templates (text/template over vars and
    shared data) are not modelled: the 'tmpl' engine scenarios check them in the harness
    (monitor clause (17,_): wrong rendering, or an action that runs although its template could
    not be rendered). *)
From Coq Require Import List ZArith Bool Arith.
From FF Require Import Sx StoreModel StoreCheck PreCheck Vars VarsFacts.
Import ListNotations.
Local Open Scope Z_scope.

(** variables: exactly the declared names, each with the caller's non-empty value or the default *)
Theorem C17_vars_are_the_declared_names : forall decl spec, map fst (dag_run_vars decl spec) = map fst decl.
Proof. intros decl spec. unfold dag_run_vars. rewrite map_map. reflexivity. Qed.
Print Assumptions C17_vars_are_the_declared_names.

Theorem C17_var_value : forall decl spec n dflt,
  In (n, dflt) decl ->
  In (n, match kv_lookup spec n with Some v => if Z.eqb v 0 then dflt else v | None => dflt end)
     (dag_run_vars decl spec).
Proof. intros decl spec n dflt H. unfold dag_run_vars. apply in_map_iff. exists (n, dflt). split; [reflexivity|exact H]. Qed.
Print Assumptions C17_var_value.

(** undeclared caller keys are ignored: the result does not depend on them *)
Theorem C17_undeclared_caller_keys_ignored : forall decl spec k v,
  ~ In k (map fst decl) -> dag_run_vars decl ((k, v) :: spec) = dag_run_vars decl spec.
Proof.
  intros decl spec k v Hk. unfold dag_run_vars. apply map_ext_in. intros [n d] Hin. simpl.
  unfold kv_lookup. simpl. destruct (Z.eqb_spec k n) as [E|E]; [|reflexivity].
  exfalso. apply Hk. subst k. apply in_map_iff. exists (n, d). auto.
Qed.
Print Assumptions C17_undeclared_caller_keys_ignored.

(** no placeholder of a declared variable survives, in any string at any depth under maps and lists *)
Theorem C17_render_closes_all_holes : forall vs p, open_holes vs (render vs p) = [].
Proof.
  intros vs p.
  induction p as [t|z|b| |l IH|l IH] using pv_ind'; simpl; try reflexivity.
  - induction t as [|x r IHr]; simpl; [reflexivity|]. rewrite IHr, app_nil_r.
    destruct x as [z|v|z]; simpl; try reflexivity. destruct (kv_lookup vs v) eqn:E; simpl; [reflexivity|rewrite E; reflexivity].
  - induction IH as [|[k v] r Hv _ IHr]; simpl; [reflexivity|]. simpl in Hv. rewrite Hv. exact IHr.
  - induction IH as [|v r Hv _ IHr]; simpl; [reflexivity|]. rewrite Hv. exact IHr.
Qed.
Print Assumptions C17_render_closes_all_holes.

(** non-string values are untouched *)
Theorem C17_render_scalars_untouched : forall vs,
  (forall z, render vs (PInt z) = PInt z) /\ (forall b, render vs (PBool b) = PBool b) /\ render vs PNil = PNil.
Proof. intros vs. repeat split. Qed.
Print Assumptions C17_render_scalars_untouched.

(** literals and placeholders of undeclared names are untouched *)
Theorem C17_other_tokens_untouched : forall vs t,
  match t with THole v => kv_lookup vs v = None | TVal _ => True | TLit _ => True end -> subst_tok vs t = t.
Proof. intros vs t. destruct t as [z|v|z]; simpl; auto. intros E. rewrite E. reflexivity. Qed.
Print Assumptions C17_other_tokens_untouched.

Theorem C17_declared_placeholder_replaced : forall vs v x, kv_lookup vs v = Some x -> subst_tok vs (THole v) = TVal x.
Proof. intros vs v x E. simpl. rewrite E. reflexivity. Qed.
Print Assumptions C17_declared_placeholder_replaced.
