(** C19 — Store contract: round-trips, isolated patches, exact filters, honest errors.
    Theorems about [StoreModel] (the reference the real store/mongo is compared
    against call by call over an in-memory MongoDB wire server). *)
From Coq Require Import List ZArith Bool Arith Lia.
From FF Require Import Sx StoreModel StoreFacts.
Import ListNotations.
Local Open Scope Z_scope.

(** create-then-get returns every field unchanged (updatedAt := now), nothing else moves *)
Theorem C19_create_get_task : forall now s r,
  has_task s (t_id r) = false ->
  let s' := fst (create_task now s r) in
  snd (create_task now s r) = ROk /\ get_task s' (t_id r) = RTask (with_upd_t r now) /\ insts s' = insts s.
Proof.
  intros now s r H. unfold create_task. rewrite H. simpl. repeat split.
  unfold get_task. simpl. unfold has_task in H. apply existsb_find_none in H.
  rewrite (find_app_none _ _ _ H). simpl. rewrite Z.eqb_refl. reflexivity.
Qed.
Print Assumptions C19_create_get_task.

Theorem C19_create_get_ins : forall now s r,
  has_ins s (i_id r) = false ->
  let s' := fst (create_ins now s r) in
  snd (create_ins now s r) = ROk /\ get_ins s' (i_id r) = RIns (with_upd_i r now) /\ tasks s' = tasks s.
Proof.
  intros now s r H. unfold create_ins. rewrite H. simpl. repeat split.
  unfold get_ins. simpl. unfold has_ins in H. apply existsb_find_none in H.
  rewrite (find_app_none _ _ _ H). simpl. rewrite Z.eqb_refl. reflexivity.
Qed.
Print Assumptions C19_create_get_ins.

(** duplicate key => conflict, store unchanged; missing key => not found *)
Theorem C19_duplicate_conflict : forall now s r,
  has_task s (t_id r) = true -> create_task now s r = (s, RConflict).
Proof. intros now s r H. unfold create_task. rewrite H. reflexivity. Qed.
Print Assumptions C19_duplicate_conflict.

Theorem C19_duplicate_conflict_ins : forall now s r,
  has_ins s (i_id r) = true -> create_ins now s r = (s, RConflict).
Proof. intros now s r H. unfold create_ins. rewrite H. reflexivity. Qed.
Print Assumptions C19_duplicate_conflict_ins.

Theorem C19_get_missing : forall s id, has_task s id = false -> get_task s id = RNotFound.
Proof. intros s id H. unfold get_task. unfold has_task in H. rewrite (existsb_find_none _ _ H). reflexivity. Qed.
Print Assumptions C19_get_missing.

Theorem C19_update_missing : forall now s r,
  has_task s (t_id r) = false -> update_task now s r = (s, RNotFound).
Proof.
  intros now s r H. unfold update_task. destruct (upd_first _ _ (tasks s)) as [l b] eqn:U.
  apply (f_equal snd) in U. rewrite upd_first_found in U. simpl in U. unfold has_task in H. rewrite H in U.
  subst b. reflexivity.
Qed.
Print Assumptions C19_update_missing.

(** a task patch changes only the supplied fields of one record *)
Theorem C19_patch_task_frame : forall now s id st rs tr,
  id <> 0 ->
  let s' := fst (patch_task now s id st rs tr) in
  insts s' = insts s /\
  (forall id', id' <> id -> get_task s' id' = get_task s id') /\
  (forall r, get_task s id = RTask r ->
     get_task s' id = RTask (mkT (t_id r) (t_ins r) (t_gid r) (t_deps r) (t_timeout r)
                                 (if Z.eqb st 0 then t_status r else st)
                                 (if Z.eqb rs 0 then t_reason r else rs)
                                 (match tr with [] => t_traces r | _ => tr end) now (t_rest r))) /\
  (get_task s id = RNotFound -> get_task s' id = RNotFound) /\
  length (tasks s') = length (tasks s).
Proof. exact patch_task_frame. Qed.
Print Assumptions C19_patch_task_frame.

(** an instance patch never clears worker, command, shared data, status or reason it was not given *)
Theorem C19_patch_ins_frame : forall now s id share st cmd must_cmd wk rs must_rs,
  let s' := fst (patch_ins now s id share st cmd must_cmd wk rs must_rs) in
  tasks s' = tasks s /\
  (forall id', id' <> id -> get_ins s' id' = get_ins s id') /\
  (forall r, get_ins s id = RIns r ->
     get_ins s' id = RIns (mkI (i_id r)
                              (if Z.eqb wk 0 then i_worker r else wk)
                              (if Z.eqb st 0 then i_status r else st)
                              (if must_rs || negb (Z.eqb rs 0) then rs else i_reason r)
                              (match cmd with Some c => Some c | None => if must_cmd then None else i_cmd r end)
                              (match share with Some d => Some d | None => i_share r end)
                              now (i_rest r))) /\
  length (insts s') = length (insts s).
Proof. exact patch_ins_frame. Qed.
Print Assumptions C19_patch_ins_frame.

(** list queries return exactly the matching records *)
Theorem C19_list_tasks_exact : forall now s f r,
  In r (list_tasks now s f) <-> In r (tasks s) /\ task_matches now f r = true.
Proof. exact list_tasks_exact. Qed.
Print Assumptions C19_list_tasks_exact.

Theorem C19_list_ins_exact : forall s f r,
  if_limit f <= 0 -> (In r (list_ins s f) <-> In r (insts s) /\ ins_matches f r = true).
Proof. exact list_ins_exact_nolimit. Qed.
Print Assumptions C19_list_ins_exact.

Theorem C19_list_ins_limit : forall s f,
  0 < if_limit f -> list_ins s f = firstn (Z.to_nat (if_limit f)) (filter (ins_matches f) (insts s)).
Proof. intros s f H. unfold list_ins, take_limit. destruct (Z.ltb_spec 0 (if_limit f)); [reflexivity|lia]. Qed.
Print Assumptions C19_list_ins_limit.

(** a failing element of a batch write is reported to the caller *)
Theorem C19_batch_update_ins_reports : forall now l s k,
  (k < length l)%nat -> snd (batch_update_ins now s l (Some k)) = RErr.
Proof.
  intros now.
  induction l as [|r rest IH]; intros s k Hk; simpl in *; [lia|].
  destruct k as [|k].
  - destruct (batch_update_ins now s rest None). reflexivity.
  - specialize (IH (fst (update_ins now s r)) k ltac:(lia)).
    destruct (batch_update_ins now (fst (update_ins now s r)) rest (Some k)). simpl in *. exact IH.
Qed.
Print Assumptions C19_batch_update_ins_reports.

Theorem C19_batch_update_tasks_reports : forall now l s k,
  (k < length l)%nat -> snd (batch_update_tasks now s l (Some k)) = RErr.
Proof.
  intros now.
  induction l as [|r rest IH]; intros s k Hk; simpl in *; [lia|].
  destruct k as [|k]; [reflexivity|]. apply IH. lia.
Qed.
Print Assumptions C19_batch_update_tasks_reports.

Theorem C19_batch_create_tasks_reports : forall now l s k,
  (k < length l)%nat -> snd (batch_create_tasks now s l (Some k)) = RErr.
Proof.
  intros now.
  induction l as [|r rest IH]; intros s k Hk; simpl in *; [lia|].
  destruct k as [|k]; [reflexivity|].
  destruct (create_task now s r) as [s' rp] eqn:E. destruct rp; try reflexivity. apply IH. lia.
Qed.
Print Assumptions C19_batch_create_tasks_reports.

(** worker key accepted iff  name-N  (name non-empty, no newline; N decimal, 0..255) *)
Theorem C19_worker_key_sound : forall key v,
  check_worker_key key = Some v ->
  exists p s, key = p ++ 45 :: s /\ p <> [] /\ s <> [] /\ forallb is_digit s = true /\
              ~ In 10 p /\ v = digits_value s 0 /\ v <= 255.
Proof.
  intros key v.
  unfold check_worker_key. destruct (split_last_dash key) as [[p s]|] eqn:E; [|discriminate].
  destruct p as [|c p]; [discriminate|]. destruct s as [|d s]; [discriminate|].
  remember (c :: p) as pp eqn:Epp. remember (d :: s) as ss eqn:Ess.
  destruct (forallb is_digit ss) eqn:Hd; cbn [andb]; [|discriminate].
  destruct (forallb (fun c0 => negb (Z.eqb c0 10)) pp) eqn:Hp; [|discriminate].
  destruct (Z.leb_spec (digits_value ss 0) 255); [|discriminate].
  intros Hv; injection Hv as <-. apply split_last_dash_spec in E as [-> _].
  exists pp, ss. subst pp ss. repeat split; try discriminate; auto.
  intros Hin. rewrite forallb_forall in Hp. specialize (Hp 10 Hin). discriminate.
Qed.
Print Assumptions C19_worker_key_sound.

Theorem C19_worker_key_complete : forall p s,
  p <> [] -> s <> [] -> forallb is_digit s = true -> ~ In 10 p -> digits_value s 0 <= 255 ->
  check_worker_key (p ++ 45 :: s) = Some (digits_value s 0).
Proof.
  intros p s Hp Hs Hd Hn Hv. unfold check_worker_key.
  rewrite (split_last_dash_complete p s (digits_no_dash s Hd)).
  destruct p as [|c p]; [congruence|]. destruct s as [|d s]; [congruence|].
  remember (c :: p) as pp eqn:Epp. remember (d :: s) as ss eqn:Ess.
  rewrite Hd.
  assert (E : forallb (fun c0 => negb (Z.eqb c0 10)) pp = true).
  { apply forallb_forall. intros x Hx. destruct (Z.eqb_spec x 10); [subst x; contradiction|reflexivity]. }
  rewrite E. cbn [andb]. destruct (Z.leb_spec (digits_value ss 0) 255); [reflexivity|lia].
Qed.
Print Assumptions C19_worker_key_complete.

(** ids generated under different worker numbers differ (bit layout of the id) *)
Theorem C19_ids_differ : forall t1 s1 m1 t2 s2 m2,
  0 <= m1 < 65536 -> 0 <= m2 < 65536 -> m1 <> m2 -> flake_id t1 s1 m1 <> flake_id t2 s2 m2.
Proof.
  intros t1 s1 m1 t2 s2 m2.
  unfold flake_id. intros H1 H2 Hne E.
  assert (X : (t1 * 16777216 + s1 * 65536 + m1) mod 65536 = (t2 * 16777216 + s2 * 65536 + m2) mod 65536) by (rewrite E; reflexivity).
  replace (t1 * 16777216 + s1 * 65536 + m1) with (m1 + (t1 * 256 + s1) * 65536) in X by ring.
  replace (t2 * 16777216 + s2 * 65536 + m2) with (m2 + (t2 * 256 + s2) * 65536) in X by ring.
  rewrite !Z.mod_add in X by lia. rewrite !Z.mod_small in X by lia. contradiction.
Qed.
Print Assumptions C19_ids_differ.
