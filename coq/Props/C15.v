(** C15 — life cycles.  [task_edge] / [ins_edge] are the relations the journal monitor checks
    every persisted status change against (clause (15,_)); these theorems show they say what
    the property says.  Finality of a finished task is also proved over the Engine LTS
    ([C15_engine_*] below). *)
From Coq Require Import List ZArith Bool Arith.
From FF Require Import Sx StoreModel StoreCheck PreCheck EngineMon TaskRun TaskRunFacts Engine EngineFacts EngineSettle EngineLive.
Import ListNotations.
Local Open Scope Z_scope.

Theorem C15_finished_task_final : forall a b, fin_st a = true -> task_edge a b = true -> b = a.
Proof.
  intros *.
  unfold fin_st, sSuccess, sSkipped. intros H E.
  apply orb_true_iff in H as [H|H]; apply Z.eqb_eq in H; subst a; unfold task_edge in E;
    apply orb_true_iff in E as [E|E]; try discriminate; apply Z.eqb_eq in E; congruence.
Qed.
Print Assumptions C15_finished_task_final.

(** the one place where a status is taken apart as a binary number *)
Lemma task_edge_source a b : task_edge a b = true ->
  a = b \/ In a [sInit; sRunning; sEnding; sFailed; sCanceled; sRetrying; sBlocked; sContinue].
Proof.
  unfold task_edge. intros [E|E]%orb_true_iff; [left; apply Z.eqb_eq, E|right].
  destruct a as [|[[[|[]|]|[[]|[]|]|]|[[[]|[]|]|[[]|[]|]|]|]|]; try discriminate E; auto 10 using in_eq, in_cons.
Qed.

Theorem C15_running_only_from_init_or_continue : forall a,
  task_edge a sRunning = true -> a = sInit \/ a = sContinue \/ a = sRunning.
Proof.
  intros a E. destruct (task_edge_source a _ E) as [->|H]; [auto|].
  repeat destruct H as [<-|H]; auto; try discriminate E. destruct H.
Qed.
Print Assumptions C15_running_only_from_init_or_continue.

Theorem C15_success_only_from_ending : forall a, task_edge a sSuccess = true -> a = sEnding \/ a = sSuccess.
Proof.
  intros a E. destruct (task_edge_source a _ E) as [->|H]; [auto|].
  repeat destruct H as [<-|H]; auto; try discriminate E. destruct H.
Qed.
Print Assumptions C15_success_only_from_ending.

Theorem C15_instance_success_final : forall o b, ins_edge o iSuccess b = true -> b = iSuccess.
Proof.
  intros *.
  unfold ins_edge, iSuccess. intros E. apply orb_true_iff in E as [E|E]; [|discriminate].
  apply Z.eqb_eq in E. congruence.
Qed.
Print Assumptions C15_instance_success_final.

Theorem C15_rearm_only_by_command : forall o a,
  (a = iFailed \/ a = iBlocked) -> ins_edge o a iRunning = true -> o = 2.
Proof.
  intros *.
  unfold ins_edge, iFailed, iBlocked, iRunning. intros [H|H] E; subst a; simpl in E;
    destruct (Z.eqb_spec o 2); auto; simpl in E; discriminate.
Qed.
Print Assumptions C15_rearm_only_by_command.

Theorem C15_back_to_init_only_by_watchdog : forall o, ins_edge o iScheduled iInit = true -> o = 4.
Proof.
  intros *. unfold ins_edge, iScheduled, iInit. simpl. destruct (Z.eqb_spec o 4); auto; discriminate. Qed.
Print Assumptions C15_back_to_init_only_by_watchdog.

Theorem C15_scheduled_only_by_dispatch : forall o, ins_edge o iInit iScheduled = true -> o = 5 \/ o = 9.
Proof.
  intros *.
  unfold ins_edge, iInit, iScheduled. simpl. unfold zin. simpl.
  destruct (Z.eqb_spec o 5); auto. destruct (Z.eqb_spec o 9); auto. discriminate.
Qed.
Print Assumptions C15_scheduled_only_by_dispatch.

(** within one executor run the status writes follow the cycle: ending only after the main action
    returned ok, success only past ending (see C02), failure after any error *)
Theorem C15_run_ending_after_run_ok : forall p e,
  acc_step p e = Some NeedEnding -> (e = TX /\ p = NeedEnding) \/ e = TE 1 0.
Proof. exact (fun p e => into p e NeedEnding). Qed.
Print Assumptions C15_run_ending_after_run_ok.

(** --- engine level (Engine; the scope, and the hypothesis [validate = true] under which the statements hold and
    without which they fail ([..._refuted], F-dup-push), are described in C01.v) --- *)

(** a finished task (success or skipped) is never given another status *)
Theorem C15_engine_finished_final : forall tasks deps cq nn ls s l s' t,
  run tasks deps true cq nn boot ls = Some s -> step tasks deps true cq nn s l = Some s' ->
  done (Engine.store s t) = true -> Engine.store s' t = Engine.store s t.
Proof.
  intros tasks deps cq nn ls s l s' t Hr Hs.
  exact (done_final tasks deps cq nn s l s' t (inv_history tasks deps cq nn ls s Hr) Hs).
Qed.
Print Assumptions C15_engine_finished_final.

(** the code as it is: in the history [witness_dup] the recorded success of task 2 is overwritten.  Its 24th
    label accepts the stale second delivery of task 2; the [StartWrite 2] of the statement is its 25th. *)
Theorem C15_engine_unvalidated_refuted :
  exists s s', run [1; 2; 3]%Z deps3 false false true boot (firstn 24 witness_dup) = Some s /\
               step [1; 2; 3]%Z deps3 false false true s (StartWrite 2) = Some s' /\
               Engine.store s 2 = SSuccess /\ Engine.store s' 2 = SRunning.
Proof. eexists. eexists. split; [vm_compute; reflexivity|]. split; [vm_compute; reflexivity|]. split; reflexivity. Qed.
Print Assumptions C15_engine_unvalidated_refuted.

(** the same with a pre-check: a duplicate push records 'skipped' next to a delivery that is already registered;
    the registered run then overwrites it with 'running' *)
Theorem C15_engine_skipped_overwritten_refuted :
  exists s s', run [1; 2; 3]%Z deps3 false false true boot witness_dup_skip = Some s /\
               step [1; 2; 3]%Z deps3 false false true s (StartWrite 2) = Some s' /\
               Engine.store s 2 = SSkipped /\ Engine.store s' 2 = SRunning.
Proof. exact skipped_overwritten_refuted. Qed.
Print Assumptions C15_engine_skipped_overwritten_refuted.

(** with commands issued and picked up at quiescent points: finality for the code as it is ([validate] arbitrary) *)
Theorem C15_engine_quiet_commands_finished_final : forall tasks deps validate (rank : Z -> nat),
  NoDup tasks ->
  (forall t d, In d (deps t) -> (rank d < rank t)%nat) ->
  (forall t d, In t tasks -> In d (deps t) -> In d tasks) ->
  forall ls s l s' t, run tasks deps validate true true boot ls = Some s ->
  step tasks deps validate true true s l = Some s' -> done (Engine.store s t) = true -> Engine.store s' t = Engine.store s t.
Proof.
  intros tasks deps validate rank Hnd Hrank Hclosed ls s l s' t Hr Hs.
  apply (quiet_done_final tasks deps validate s l s' t); [|exact Hs].
  exact (invq_history tasks deps validate rank Hnd Hrank Hclosed ls s Hr).
Qed.
Print Assumptions C15_engine_quiet_commands_finished_final.
