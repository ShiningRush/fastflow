(** C05 — instantiation is idempotent.  [round] models the record-creation loop of
    parseScheduleDagIns (compare counts, create the absent ones in DAG order, one insert at a
    time).  That the records the real code creates carry the DAG's definition (dependencies,
    timeout or the worker default, status init) and that exactly one record per task exists when
    the instance is marked running are monitor clauses (5,_), evaluated on journals whose
    instantiation batch is interrupted in the database and resumed. *)
From Coq Require Import List ZArith Bool Arith.
From FF Require Import Sx StoreModel Instantiate InstantiateFacts.
Import ListNotations.
Local Open Scope Z_scope.

(** however many interrupted rounds precede it, a complete round leaves exactly one record
    per DAG task - no more and no fewer *)
Theorem C05_instantiation_idempotent : forall dag cuts,
  NoDup (gidsD dag) ->
  let h := round dag (rounds dag [] cuts) None in
  NoDup h /\ (forall g, In g h <-> In g (gidsD dag)).
Proof.
  intros dag cuts ND. apply full_round_complete; [exact ND|]. apply rounds_inv; [exact ND|].
  split; [constructor|intros x []].
Qed.
Print Assumptions C05_instantiation_idempotent.

Theorem C05_interrupted_rounds_keep_invariant : forall dag cuts have,
  NoDup (gidsD dag) -> Inv dag have -> Inv dag (rounds dag have cuts).
Proof. exact rounds_inv. Qed.
Print Assumptions C05_interrupted_rounds_keep_invariant.

(** after a complete round a further round changes nothing *)
Theorem C05_complete_round_stable : forall dag have,
  NoDup (gidsD dag) -> NoDup have -> (forall g, In g have <-> In g (gidsD dag)) -> round dag have None = have.
Proof.
  intros dag have ND Hn Hs. unfold round.
  assert (E : length dag = length have).
  { unfold gidsD in *. rewrite <- (map_length d_gid dag). apply Nat.le_antisymm.
    - apply NoDup_incl_length; [exact ND|intros x Hx; apply Hs; exact Hx].
    - apply NoDup_incl_length; [exact Hn|intros x Hx; apply Hs; exact Hx]. }
  rewrite E, Nat.eqb_refl. reflexivity.
Qed.
Print Assumptions C05_complete_round_stable.

Theorem C05_record_timeout : forall dflt d,
  snd (new_record dflt d) = if Z.eqb (d_timeout d) 0 then dflt else d_timeout d.
Proof. reflexivity. Qed.
Print Assumptions C05_record_timeout.
