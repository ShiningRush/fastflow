(** C18 — shared data and traces.  [sd_set true] models ShareData.Set as repaired by the fix
    commit (memory + stored dictionary, whole-dictionary save).  Durability against the store
    history, visibility to later tasks and traces are monitor clauses (18,_). *)
From Coq Require Import List ZArith Bool Arith.
From FF Require Import Sx StoreModel StoreCheck PreCheck ShareData ShareDataFacts ShareDataConc.
Import ListNotations.
Local Open Scope Z_scope.

(** Set returned and the save succeeded: memory = store = old[k:=v] *)
Theorem C18_set_ok : forall s k v fixed,
  let s' := sd_set fixed s k v true in
  mem s' = stored s' /\ d_get (mem s') k = Some v /\ (forall k', k' <> k -> d_get (mem s') k' = d_get (mem s) k').
Proof.
  intros s k v fixed.
  simpl. split; [reflexivity|]. split; [apply get_set_same|]. intros k' H. apply get_set_other, H.
Qed.
Print Assumptions C18_set_ok.

(** the save failed: the in-memory view is exactly what it was before, the store is untouched *)
Theorem C18_set_failed_rolls_back : forall s k v,
  let s' := sd_set true s k v false in
  dict_equiv (mem s') (mem s) /\ stored s' = stored s.
Proof.
  intros s k v. split; [|reflexivity]. intros k'.
  (* the rollback restores [k] to the value it has *)
  change (d_get (restore (mem s) k (d_get (mem s) k)) k' = d_get (mem s) k'). rewrite get_restore.
  destruct (Z.eqb_spec k' k) as [->|_]; reflexivity.
Qed.
Print Assumptions C18_set_failed_rolls_back.

(** refutation for the pinned code: overwrite of an existing key + failed save lost the old value *)
Theorem C18_unfixed_rollback_refuted :
  exists s k v, d_get (mem (sd_set false s k v false)) k <> d_get (mem s) k.
Proof. exists (mkSd [(1, 5)] [(1, 5)]), 1, 7. vm_compute. discriminate. Qed.
Print Assumptions C18_unfixed_rollback_refuted.

(** sets through ONE live dictionary never lose each other's keys: after any sequence of
    acknowledged sets, every key set before is still stored *)
Theorem C18_sets_keep_keys : forall (ops : list (Z * Z)) s k0,
  d_get (stored s) k0 <> None -> mem s = stored s ->
  d_get (stored (fold_left (fun acc kv => sd_set true acc (fst kv) (snd kv) true) ops s)) k0 <> None.
Proof.
  induction ops as [|[k v] r IH]; intros s k0 H E; simpl; [exact H|].
  apply IH; simpl; [|reflexivity]. rewrite E. apply d_set_keeps, H.
Qed.
Print Assumptions C18_sets_keep_keys.

(** Concurrent Sets (ShareDataConc: any number of tasks calling Set in parallel, every interleaving of
    their mutex acquisitions, in-memory writes, saves - succeeding or failing - and returns).  Whenever no Set
    is inside its critical section the in-memory view is exactly what is stored; a stored key is never lost;
    a Set that saved successfully returns with its value in the store; a Set whose save failed leaves the view
    as it was.  The variant that saves outside the mutex loses a key ([..._refuted]).  The tie to the source:
    the synchronisation skeleton of ShareData.Set / Get (family skel, ids 13, 14) and the differential run of
    the sequential function (family sharedata). *)

Theorem C18_concurrent_view_is_store : forall d ls s,
  crun true (cinit d) ls = Some s -> c_lock s = None -> dict_equiv (c_mem s) (c_stored s).
Proof. intros d ls s HR Hl. pose proof (ci_view s (cinv_reach ls _ _ (cinv_init d) HR)) as Hv. rewrite Hl in Hv. exact Hv. Qed.
Print Assumptions C18_concurrent_view_is_store.

Theorem C18_concurrent_keys_never_lost : forall d ls s l s' k,
  crun true (cinit d) ls = Some s -> cstep true s l = Some s' -> d_get (c_stored s) k <> None -> d_get (c_stored s') k <> None.
Proof.
  intros d ls s l s' k Hr. apply stored_key_kept. exact (cinv_reach ls _ _ (cinv_init d) Hr).
Qed.
Print Assumptions C18_concurrent_keys_never_lost.

Theorem C18_concurrent_set_returns_stored : forall d ls s i k v s',
  crun true (cinit d) ls = Some s -> c_pc s i = TSaved k v true -> cstep true s (CReturn i) = Some s' ->
  d_get (c_stored s') k = Some v.
Proof.
  intros d ls s i k v s' HR Ep HS. cbn in HS. rewrite Ep in HS. injection HS as <-.
  apply (holder_view s i _ (cinv_reach ls _ _ (cinv_init d) HR) Ep Logic.I). reflexivity.
Qed.
Print Assumptions C18_concurrent_set_returns_stored.

Theorem C18_concurrent_failed_set_rolled_back : forall d ls s i k v,
  crun true (cinit d) ls = Some s -> c_pc s i = TSaved k v false -> dict_equiv (c_mem s) (c_stored s).
Proof.
  intros d ls s i k v HR Ep. apply (holder_view s i _ (cinv_reach ls _ _ (cinv_init d) HR) Ep Logic.I).
Qed.
Print Assumptions C18_concurrent_failed_set_rolled_back.

Theorem C18_save_outside_mutex_refuted :
  exists s, crun false (cinit []) w_lost_key = Some s /\ c_lock s = None /\
            d_get (c_mem s) 2 = Some 22 /\ d_get (c_stored s) 2 = None.
Proof. eexists. split; [vm_compute; reflexivity|]. repeat split. Qed.
Print Assumptions C18_save_outside_mutex_refuted.

(** Two dictionary objects for one instance (ShareDataStale): the tasks of the live tree and the tasks pushed by a
    re-initialisation (retry / continue command).  With ONE shared dictionary a stored key is never lost; with the
    snapshot the command watcher listed - the code as it is - it is (known finding F-C18-stale-sharedata-after-command,
    reproduced on the real code by kind sharecmd). *)
From FF Require Import ShareDataStale.

Theorem C18_shared_dictionary_keeps_keys : forall ls s k,
  stored s = live s -> has_key (stored s) k -> has_key (stored (srun true s ls)) k.
Proof.
  induction ls as [|l r IH]; intros s k E H; [exact H|].
  change (srun true s (l :: r)) with (srun true (sstep true s l) r).
  apply IH.
  - destruct l; cbn; congruence.
  - destruct l; cbn; [exact H | rewrite <- E; apply has_key_set; exact H | rewrite <- E; apply has_key_set; exact H].
Qed.
Print Assumptions C18_shared_dictionary_keeps_keys.

(** the code as it is: list, a live task stores key 1 (its Set returns, the store holds it), a re-armed task
    stores key 2 through the snapshot - key 1 is gone from the store *)
Theorem C18_stale_snapshot_refuted :
  exists ls, let s := srun false (sinit []) ls in
             d_get (stored (srun false (sinit []) (firstn 2 ls))) 1%Z = Some 10%Z /\ d_get (stored s) 1%Z = None /\ d_get (stored s) 2%Z = Some 20%Z.
Proof. exists [SList; SSetLive 1 10; SSetSnap 2 20]. vm_compute. repeat split. Qed.
Print Assumptions C18_stale_snapshot_refuted.
