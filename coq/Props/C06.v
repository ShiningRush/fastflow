(** C06 — worker isolation.  The worker's three own-duty reads carry its key; the store's
    list with a worker key returns only that worker's instances.  That every own-duty read
    is worker-filtered and every own-duty write hits an own instance is monitor clause (6,_),
    and the harness compares foreign documents byte for byte before/after. *)
From Coq Require Import List ZArith Bool Arith.
From FF Require Import Sx StoreModel StoreFacts.
Import ListNotations.
Local Open Scope Z_scope.

(** worker filter: a list with a worker key never returns a foreign instance *)
Theorem C06_list_returns_only_own : forall s f r,
  if_worker f <> 0 -> In r (list_ins s f) -> i_worker r = if_worker f.
Proof.
  intros s f r Hw H. unfold list_ins, take_limit in H.
  assert (F : In r (filter (ins_matches f) (insts s))).
  { destruct (0 <? if_limit f); [eapply In_firstn; exact H|exact H]. }
  apply filter_In in F as [_ M]. unfold ins_matches in M.
  apply andb_true_iff in M as [[[_ W]%andb_true_iff _]%andb_true_iff _].
  apply orb_true_iff in W as [E|E]; apply Z.eqb_eq in E; congruence.
Qed.
Print Assumptions C06_list_returns_only_own.

(** a patch of one instance leaves every other instance and all tasks unchanged *)
Theorem C06_patch_touches_one_instance : forall now s id share st cmd must_cmd wk rs must_rs,
  let s' := fst (patch_ins now s id share st cmd must_cmd wk rs must_rs) in
  tasks s' = tasks s /\
  (forall id', id' <> id -> get_ins s' id' = get_ins s id') /\
  (forall r, get_ins s id = RIns r ->
     get_ins s' id = RIns (mkI (i_id r)
                              (if Z.eqb wk 0 then i_worker r else wk)
                              (if Z.eqb st 0 then i_status r else st)
                              (if must_rs || negb (Z.eqb rs 0) then rs else i_reason r)
                              (match cmd with Some c => Some c | None => if must_cmd then None else i_cmd r end)
                              (match share with Some d => Some d | None => i_share r end)
                              now (i_rest r))) /\
  length (insts s') = length (insts s).
Proof. exact patch_ins_frame. Qed.
Print Assumptions C06_patch_touches_one_instance.
