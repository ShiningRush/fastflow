(** C14 — watchdog.  Theorems about the two sweeps over StoreModel (selection exact, never
    early, nothing else changed when the sweep is not interleaved with the owner) and the
    deadline rule.  The real rounds are run against the real store (family watchdog, as
    operations 17/18 of store traces), interleavings with the owning worker are engine
    journals judged by monitor clauses (14,_) and (15,_). *)
From Coq Require Import List ZArith Bool Arith Lia.
From FF Require Import Sx Lts StoreModel StoreFacts WatchdogFacts.
Import ListNotations.
Local Open Scope Z_scope.

Theorem C14_expired_selected_iff : forall now s r,
  In r (expired_selected now s) <-> In r (tasks s) /\ t_status r = 2 /\ t_upd r <= now - 5 - t_timeout r.
Proof. exact expired_selected_iff. Qed.
Print Assumptions C14_expired_selected_iff.

Theorem C14_never_early_never_other_status : forall now s r,
  In r (expired_selected now s) -> t_status r = 2 /\ now >= t_upd r + t_timeout r + 5.
Proof. intros now s r H. apply expired_selected_iff in H as [_ [H1 H2]]. split; [exact H1|lia]. Qed.
Print Assumptions C14_never_early_never_other_status.

(** a task that the sweep did not select is left exactly as it was *)
Theorem C14_expired_round_frame : forall now s id,
  id <> 0 -> (forall r, In r (tasks s) -> t_id r <> 0) ->
  (forall r, In r (expired_selected now s) -> t_id r <> id) ->
  get_task (expired_round now s) id = get_task s id.
Proof.
  intros now s id Hid Hnz Hne. unfold expired_round.
  apply (fold_left_inv _ (fun a => get_task a id = get_task s id)); [|reflexivity].
  intros a r Hr <-. apply patch_ins_task_other; [|exact (Hne r Hr)].
  apply Hnz. apply expired_selected_iff in Hr as [Hr _]. exact Hr.
Qed.
Print Assumptions C14_expired_round_frame.

Theorem C14_left_behind_selected_iff : forall now timeout s i,
  0 < now - timeout ->
  (In i (left_behind_selected now timeout s) <-> In i (insts s) /\ i_status i = 2 /\ i_upd i <= now - timeout).
Proof. exact left_behind_selected_iff. Qed.
Print Assumptions C14_left_behind_selected_iff.

(** an instance that has been started (any status but scheduled), or has not waited long
    enough, is not selected *)
Theorem C14_started_not_sent_back : forall now timeout s i,
  0 < now - timeout -> In i (left_behind_selected now timeout s) -> i_status i = 2 /\ i_upd i + timeout <= now.
Proof. intros now timeout s i Hp H. apply (left_behind_selected_iff now timeout s i Hp) in H as [_ [H1 H2]]. split; [exact H1|lia]. Qed.
Print Assumptions C14_started_not_sent_back.

Theorem C14_action_timeout : forall dflt own, action_timeout dflt own = (if Z.eqb own 0 then dflt else own).
Proof. reflexivity. Qed.
Print Assumptions C14_action_timeout.
