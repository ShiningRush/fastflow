(** C12 — cancel.  Tree-level facts: a canceled task enables nothing downstream, and a task that
    did not finish hands no children to the executor.  The engine-level clause (nothing
    downstream of a cancelled in-flight task starts until it is retried) is monitor clause (12,1). *)
From Coq Require Import List ZArith Bool Arith.
From FF Require Import Sx TaskTree TaskTreeFacts.
Import ListNotations.

(** marking children canceled (cancelChildTasks) makes them enable nothing downstream *)
Theorem C12_canceled_enables_nothing : forall t u, status_of t u = TCanceled -> gnode_ok t (Some u) = false.
Proof. intros t u H. simpl. rewrite H. reflexivity. Qed.
Print Assumptions C12_canceled_enables_nothing.

Theorem C12_unfinished_hands_out_nothing : forall t g s t' ids,
  next_ids t g s = Some (t', ids, true) -> s <> TInit -> can_exec_child_st s = false -> ids = [].
Proof. exact next_ids_unfinished_none. Qed.
Print Assumptions C12_unfinished_hands_out_nothing.

Theorem C12_pushed_children_have_done_parents : forall t g s t' ids v p,
  next_ids t g s = Some (t', ids, true) -> s <> TInit ->
  In v ids -> In p (parents t' v) -> gnode_ok t' p = true.
Proof. exact next_ids_children_done. Qed.
Print Assumptions C12_pushed_children_have_done_parents.
