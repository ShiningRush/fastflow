(** C07 — Dispatch assigns each pending instance to exactly one live worker, evenly. *)
From Coq Require Import List ZArith Bool Arith Lia.
From FF Require Import Sx Dispatch DispatchFacts.
Import ListNotations.

(** No pending instance: nothing is touched, no error (whatever the alive set). *)
Theorem C07_no_pending : forall limit insts alive,
  has_init insts = false -> dispatch_round limit insts alive = (insts, DOk).
Proof. intros limit insts alive H; unfold dispatch_round; rewrite H; reflexivity. Qed.
Print Assumptions C07_no_pending.

(** Pending instances but no live worker: nothing is assigned, the round reports an error. *)
Theorem C07_no_alive : forall limit insts,
  has_init insts = true -> dispatch_round limit insts [] = (insts, DNoAlive).
Proof. intros limit insts H; unfold dispatch_round; rewrite H; reflexivity. Qed.
Print Assumptions C07_no_alive.

(** Otherwise the round succeeds and is [assign]. *)
Theorem C07_round : forall limit insts alive,
  has_init insts = true -> alive <> [] ->
  dispatch_round limit insts alive = (assign limit 0 alive insts, DOk).
Proof. intros limit insts alive H Ha; unfold dispatch_round; rewrite H; destruct alive; [congruence|reflexivity]. Qed.
Print Assumptions C07_round.

(** Position-wise description of the result, for every list of instances, every
    alive list and every per-round limit: an instance that is not init is unchanged;
    the first [limit] init instances (store order) become scheduled on
    alive[rank mod |alive|]; init instances beyond the limit are unchanged.
    Nothing is added or removed. *)
Theorem C07_assign_spec : forall limit alive l i d,
  i < length l ->
  let x := nth i l d in
  let y := nth i (assign limit 0 alive l) d in
  (is_init (ist x) = false -> y = x) /\
  (is_init (ist x) = true -> limit <= rank l i -> y = x) /\
  (is_init (ist x) = true -> rank l i < limit ->
     y = mkIns (iid x) IScheduled (nth (rank l i mod length alive) alive 0%Z)).
Proof.
  intros limit alive l i d Hi. cbv zeta. rewrite assign_nth by assumption. cbv zeta. simpl.
  repeat split; intros H.
  - rewrite H. reflexivity.
  - intros Hr. rewrite H. simpl. destruct (Nat.ltb_spec (rank l i) limit); [lia|reflexivity].
  - intros Hr. rewrite H. simpl. destruct (Nat.ltb_spec (rank l i) limit); [reflexivity|lia].
Qed.
Print Assumptions C07_assign_spec.

Theorem C07_same_length : forall limit c alive l, length (assign limit c alive l) = length l.
Proof. exact assign_length. Qed.
Print Assumptions C07_same_length.

(** Every worker handed out is a member of the alive list of that moment. *)
Theorem C07_worker_alive : forall (alive : list Z) r,
  alive <> [] -> In (nth (r mod length alive) alive 0%Z) alive.
Proof. exact assigned_worker_alive. Qed.
Print Assumptions C07_worker_alive.

(** The workers written by a round (projection of before/after) are the round-robin
    sequence of length min(limit, #pending) ... *)
Theorem C07_written_projection : forall limit alive l c,
  written limit c alive l =
  flat_map (fun p : ins * ins =>
              if is_init (ist (fst p)) && negb (is_init (ist (snd p))) then [iwk (snd p)] else [])
           (combine l (assign limit c alive l)).
Proof. exact written_projection. Qed.
Print Assumptions C07_written_projection.

Theorem C07_written_round : forall limit alive l,
  written limit 0 alive l = handed (length alive) (Nat.min limit (count_init l)) alive.
Proof. exact written_round. Qed.
Print Assumptions C07_written_round.

(** ... and in that sequence per-worker counts differ by at most one. *)
Theorem C07_balanced : forall alive m w1 w2,
  NoDup alive -> In w1 alive -> In w2 alive ->
  count_occ Z.eq_dec (handed (length alive) m alive) w1 <=
  S (count_occ Z.eq_dec (handed (length alive) m alive) w2).
Proof. exact handed_balanced. Qed.
Print Assumptions C07_balanced.

(** The boolean monitor used on implementation runs ([mon_dispatch]: unchanged
    on no-pending / no-alive with the right error class; otherwise same length,
    every pair either untouched or (same id, scheduled, alive worker), exactly
    min(limit, #pending) instances moved, per-worker counts within one) is
    satisfied by every round of the model, for every input. *)
Theorem C07_model_satisfies_monitor : forall limit insts alive,
  NoDup alive ->
  let '(out, e) := dispatch_round limit insts alive in
  mon_dispatch limit insts alive (match e with DOk => 0 | DNoAlive => 1 end)%Z out = true.
Proof. exact model_satisfies_monitor. Qed.
Print Assumptions C07_model_satisfies_monitor.
