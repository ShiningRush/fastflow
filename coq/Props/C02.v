(** C02 — main action at most once per attempt, after 'running' is durably stored.
    Theorems about [TaskRun.acc_step], the program counter of one executor run
    (TaskInstance.Run + handleTaskError); every real journal, projected onto every
    task, must be accepted by it (correspondence [check_runs]).  The clauses that
    need the whole engine (at most one start per attempt across duplicate pushes,
    restarts and commands) are the monitor clauses (2,2) (2,4) of [EngineMon] and - over
    the Engine LTS - the theorems [C02_engine_*] below; [C02_executor_*] at the end are
    about the executor's registration protocol (ExecReg). *)
From Coq Require Import List ZArith Bool Arith.
From FF Require Import Sx StoreModel StoreCheck TaskRun TaskRunFacts Engine EngineFacts EngineSettle EngineLive.
Import ListNotations.
Local Open Scope Z_scope.

(** write-ahead: in every accepted stream, at every position, the main action starts only directly after
    an acknowledged 'running' write of the same run (writes by others aside) *)
Theorem C02_write_ahead : forall pre post,
  run_acc Idle (pre ++ TS 1 :: post) <> None ->
  exists pre' r, filter not_tx pre = pre' ++ [TP 2 r true].
Proof.
  intros pre post H. rewrite run_acc_app in H. destruct (run_acc Idle pre) as [p|] eqn:Hp; [|congruence].
  cbn [run_acc] in H. destruct (acc_step p (TS 1)) as [q|] eqn:Hs; [|congruence].
  apply start_run_needs in Hs as ->.
  apply reach in Hp as [[Hc _]|(pre' & e & E & r & ->)]; [discriminate|eauto].
Qed.
Print Assumptions C02_write_ahead.

(** a 'running' write that was not acknowledged is followed by the failure write, never by the action *)
Theorem C02_failed_running_write : forall p r,
  acc_step p (TP 2 r false) <> None -> acc_step p (TP 2 r false) = Some NeedFail.
Proof. intros p r. destruct p, r; cbn; congruence. Qed.
Print Assumptions C02_failed_running_write.

Theorem C02_after_failure_only_failure_write : forall e q,
  acc_step NeedFail e = Some q -> e = TX \/ e = TCrash \/ exists st ok, e = TP st true ok /\ is_fail_st st = true.
Proof.
  intros e q.
  destruct e as [ph|ph o|st [|] ok| |]; try discriminate; auto.
  cbn -[is_fail_st]. destruct (is_fail_st st) eqn:F; [eauto 6|discriminate].
Qed.
Print Assumptions C02_after_failure_only_failure_write.

(** success is written only past the main action: after the after-hook returned ok, or after the
    acknowledged 'ending' write when there is no after-hook, or resuming a task persisted as ending *)
Theorem C02_success_write_needs : forall p r ok q,
  acc_step p (TP 4 r ok) = Some q -> p = NeedSuccess \/ p = NeedAfterOrSuccess \/ p = Idle.
Proof. intros p r ok q. destruct p, r; try discriminate; auto. Qed.
Print Assumptions C02_success_write_needs.

Theorem C02_NeedSuccess_after_ok : forall p e,
  acc_step p e = Some NeedSuccess -> (e = TX /\ p = NeedSuccess) \/ e = TE 2 0.
Proof. exact (fun p e => into p e NeedSuccess). Qed.
Print Assumptions C02_NeedSuccess_after_ok.

Theorem C02_ending_after_run_ok : forall p e,
  acc_step p e = Some NeedEnding -> (e = TX /\ p = NeedEnding) \/ e = TE 1 0.
Proof. exact (fun p e => into p e NeedEnding). Qed.
Print Assumptions C02_ending_after_run_ok.

Theorem C02_after_or_success_after_ending_ack : forall p e,
  acc_step p e = Some NeedAfterOrSuccess -> (e = TX /\ p = NeedAfterOrSuccess) \/ exists r, e = TP 3 r true.
Proof. exact (fun p e => into p e NeedAfterOrSuccess). Qed.
Print Assumptions C02_after_or_success_after_ending_ack.

(** a phase that errors or panics leads to the failure write of the same task (containment, also C03) *)
Theorem C02_phase_error_contained : forall p ph o q,
  acc_step p (TE ph o) = Some q -> o <> 0 -> q = NeedFail.
Proof.
  intros p ph o q H Ho%Z.eqb_neq. revert H.
  destruct p; try discriminate; destruct ph as [|[[?|?|]|[?|?|]|]|]; try discriminate;
    cbn; rewrite Ho; congruence.
Qed.
Print Assumptions C02_phase_error_contained.

(** --- engine level (Engine; the scope, and the hypothesis [validate = true] under which the statements hold and
    without which they fail ([..._refuted], F-dup-push), are described in C01.v) --- *)

(** at most one main-action start per attempt, across duplicate pushes, crashes and restarts: a start
    requires that none happened in the attempt, and only the retry command of that task opens a new attempt *)
Theorem C02_engine_once_per_attempt : forall tasks deps cq nn ls s t s',
  run tasks deps true cq nn boot ls = Some s -> step tasks deps true cq nn s (MainStart t) = Some s' ->
  started s t = false /\ started s' t = true.
Proof.
  intros tasks deps cq nn ls s t s' Hr Hs.
  exact (main_start_once tasks deps cq nn s t s' (inv_history tasks deps cq nn ls s Hr) Hs).
Qed.
Print Assumptions C02_engine_once_per_attempt.

(** ... and only when 'running' is the task's persisted status *)
Theorem C02_engine_start_after_running_stored : forall tasks deps cq nn ls s t s',
  run tasks deps true cq nn boot ls = Some s -> step tasks deps true cq nn s (MainStart t) = Some s' ->
  store s t = SRunning.
Proof.
  intros tasks deps cq nn ls s t s' Hr Hs.
  exact (main_start_after_running tasks deps cq nn s t s' (inv_history tasks deps cq nn ls s Hr) Hs).
Qed.
Print Assumptions C02_engine_start_after_running_stored.

Theorem C02_engine_attempt_ends_only_by_retry : forall tasks deps cq nn s l s' t,
  step tasks deps true cq nn s l = Some s' -> started s t = true -> l <> Rearm t -> started s' t = true.
Proof. intros tasks deps cq nn. exact (started_kept tasks deps true cq nn). Qed.
Print Assumptions C02_engine_attempt_ends_only_by_retry.

Theorem C02_engine_unvalidated_refuted :
  exists s, run [1; 2; 3]%Z deps3 false false true boot witness_dup = Some s /\
            started s 2 = true /\ exists s', step [1; 2; 3]%Z deps3 false false true s (MainStart 2) = Some s'.
Proof.
  destruct unvalidated_refuted as (s & Hr & _ & Hst & H2 & _). exists s. repeat split; assumption.
Qed.
Print Assumptions C02_engine_unvalidated_refuted.

(** with commands issued and picked up at quiescent points the code as it is needs no hypothesis about
    deliveries ([validate] arbitrary): at most one main-action start per attempt, crashes and restarts included *)
Theorem C02_engine_quiet_commands_once_per_attempt : forall tasks deps validate (rank : Z -> nat),
  NoDup tasks ->
  (forall t d, In d (deps t) -> (rank d < rank t)%nat) ->
  (forall t d, In t tasks -> In d (deps t) -> In d tasks) ->
  forall ls s t s', run tasks deps validate true true boot ls = Some s ->
  step tasks deps validate true true s (MainStart t) = Some s' -> started s t = false /\ started s' t = true.
Proof.
  intros tasks deps validate rank Hnd Hrank Hclosed ls s t s' Hr Hs.
  exact (main_start_once tasks deps true true s t s' (quiet_inv_history tasks deps validate rank Hnd Hrank Hclosed ls s Hr) Hs).
Qed.
Print Assumptions C02_engine_quiet_commands_once_per_attempt.

Theorem C02_engine_quiet_commands_attempt_ends_only_by_retry : forall tasks deps validate s l s' t,
  step tasks deps validate true true s l = Some s' -> started s t = true -> l <> Rearm t -> started s' t = true.
Proof. intros tasks deps validate. exact (started_kept tasks deps validate true true). Qed.
Print Assumptions C02_engine_quiet_commands_attempt_ends_only_by_retry.

(** The executor never holds two deliveries of one task - whatever is pushed, however often the same task object
    is handed over, with any number of workers (ExecReg): no two concurrent runs of a task by duplicate pushes. *)
From FF Require Import ExecReg ExecRegFacts.

Theorem C02_executor_one_delivery_per_task : forall nworkers f ls s,
  xrun nworkers false (xinit f) ls = Some s -> NoDup (owners s).
Proof. intros nworkers f ls s H. apply xinv_reach in H. exact (x_nodup _ _ H). Qed.
Print Assumptions C02_executor_one_delivery_per_task.

Theorem C02_executor_registered_has_owner : forall nworkers f ls s t,
  xrun nworkers false (xinit f) ls = Some s -> reg s t = true ->
  (exists d, held s = Some d /\ dt d = t) \/ (exists d ph, In (d, ph) (work s) /\ dt d = t).
Proof. exact registered_has_owner. Qed.
Print Assumptions C02_executor_registered_has_owner.
