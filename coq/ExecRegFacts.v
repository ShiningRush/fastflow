(** ExecRegFacts: the registration protocol of the executor, for every history of pushes, hand-overs, runs and
    status changes, any number of workers, any aliasing of deliveries to task objects. *)
From Coq Require Import List ZArith Bool Arith Lia Permutation.
Import ListNotations.
From FF Require Import Lts Engine ExecReg.
Local Open Scope Z_scope.

Lemma dl_eqb_eq a b : dl_eqb a b = true <-> a = b.
Proof.
  destruct a as [t o], b as [t' o']; unfold dl_eqb; cbn. rewrite andb_true_iff, Z.eqb_eq, Nat.eqb_eq.
  split; [intros [-> ->]; reflexivity | intros E; inversion E; auto].
Qed.
Lemma wph_eqb_eq a b : wph_eqb a b = true <-> a = b.
Proof. destruct a, b; cbn; split; intro H; try reflexivity; try discriminate. Qed.

Lemma takeout_split x l l' : takeout x l = Some l' -> exists l1 l2, l = l1 ++ x :: l2 /\ l' = l1 ++ l2.
Proof.
  revert l'; induction l as [|y r IH]; cbn; intros l' H; [discriminate|].
  destruct (dl_eqb (fst y) (fst x) && wph_eqb (snd y) (snd x)) eqn:E.
  - injection H as <-. apply andb_true_iff in E as [E1%dl_eqb_eq E2%wph_eqb_eq]. exists [], r.
    rewrite (surjective_pairing x), <- E1, <- E2, <- surjective_pairing. split; reflexivity.
  - destruct (takeout x r) as [r'|]; [|discriminate]. injection H as <-.
    destruct (IH r' eq_refl) as (l1 & l2 & -> & ->). exists (y :: l1), l2. split; reflexivity.
Qed.
Lemma takeout_perm x l l' : takeout x l = Some l' -> Permutation l (x :: l').
Proof. intros (l1 & l2 & -> & ->)%takeout_split. symmetry. apply Permutation_middle. Qed.
Lemma takeout_length x l l' : takeout x l = Some l' -> length l = S (length l').
Proof. intros H. apply takeout_perm in H. apply Permutation_length in H. exact H. Qed.

Definition wtasks (w : list (dl * wph)) : list Z := map (fun p => dt (fst p)) w.

Lemma wtasks_snoc w d ph : Permutation (dt d :: wtasks w) (wtasks (w ++ [(d, ph)])).
Proof. unfold wtasks. rewrite map_app. apply Permutation_cons_append. Qed.

Lemma owners_takeout s x w' : takeout x (work s) = Some w' -> Permutation (owners s) (dt (fst x) :: owners (set_work s w')).
Proof.
  intros T. apply Permutation_sym, (perm_trans (Permutation_middle _ _ _)), Permutation_app_head, Permutation_sym.
  exact (Permutation_map _ (takeout_perm _ _ _ T)).
Qed.

Section F.
  Variable nworkers : nat.

  Record XInv (s : xs) : Prop := {
    x_nodup : NoDup (owners s);                                 (* one holder per task *)
    x_reg : forall t, reg s t = true <-> In t (owners s);       (* registered = somebody is responsible *)
    x_cap : (length (work s) <= nworkers)%nat }.

  Lemma xinv_init f : XInv (xinit f).
  Proof. split; cbn; [constructor | intros t; split; [discriminate | tauto] | lia]. Qed.

  (** all the invariant sees of a state is [owners], [reg] and the number of busy workers; a step hands a
      delivery on (the owners are permuted), takes one in (a new owner, registered) or lets one go *)
  Lemma XInv_pass s s' : XInv s -> Permutation (owners s) (owners s') -> reg s' = reg s ->
    (length (work s') <= nworkers)%nat -> XInv s'.
  Proof.
    intros [ND R C] P E L. split; [exact (Permutation_NoDup P ND)| |exact L].
    intros t. rewrite E, R. split; apply Permutation_in; [exact P|symmetry; exact P].
  Qed.

  Lemma XInv_take s s' t : XInv s -> reg s t = false -> owners s' = t :: owners s -> reg s' = upd (reg s) t true ->
    (length (work s') <= nworkers)%nat -> XInv s'.
  Proof.
    intros [ND R C] F O E L. split; [| |exact L]; rewrite O.
    - constructor; [|exact ND]. intros I. apply R in I. congruence.
    - intros x. rewrite E. unfold upd. cbn [In]. rewrite <- R. destruct (Z.eqb_spec x t) as [->|Hne]; intuition congruence.
  Qed.

  Lemma XInv_drop s s' t : XInv s -> Permutation (owners s) (t :: owners s') -> reg s' = upd (reg s) t false ->
    (length (work s') <= nworkers)%nat -> XInv s'.
  Proof.
    intros [ND R C] P E L. pose proof (Permutation_NoDup P ND) as ND'. inversion ND' as [|? ? NI ND'']; subst.
    split; [exact ND''| |exact L].
    intros x. rewrite E. unfold upd. destruct (Z.eqb_spec x t) as [->|Hne].
    - split; [discriminate|contradiction].
    - rewrite R. split; intros I.
      + destruct (Permutation_in _ P I); [congruence|assumption].
      + exact (Permutation_in _ (Permutation_sym P) (or_intror I)).
  Qed.

  Lemma xinv_step s l s' : XInv s -> xstep nworkers false s l = Some s' -> XInv s'.
  Proof.
    intros HI H. pose proof (x_cap s HI) as C. destruct l as [t o| | |d|d v|d|o v]; cbn [xstep] in H.
    - injection H as <-. destruct HI; split; assumption.
    - (* the init goroutine: drops a delivery of a registered task, registers any other *)
      destruct (held s) eqn:Hh; [discriminate|]. destruct (initq s) as [|d r]; [discriminate|].
      destruct (reg s (dt d)) eqn:Hr; injection H as <-.
      + destruct HI; split; unfold owners in *; cbn; rewrite ?Hh in *; assumption.
      + apply (XInv_take s _ (dt d) HI Hr); [unfold owners; cbn; rewrite Hh|..]; trivial.
    - (* hand-over to a free worker *)
      destruct (held s) as [d|] eqn:Hh; [|discriminate].
      destruct (Nat.ltb_spec (length (work s)) nworkers) as [L|]; [|discriminate]. injection H as <-.
      apply (XInv_pass s); [exact HI| |reflexivity|cbn; rewrite app_length; cbn; lia].
      unfold owners; cbn. rewrite Hh. apply wtasks_snoc.
    - (* the worker's status check: run it, or refuse it and de-register *)
      destruct (takeout (d, WTaken) (work s)) as [w'|] eqn:T; [|discriminate].
      pose proof (owners_takeout _ _ _ T) as P. pose proof (takeout_length _ _ _ T) as Ln.
      destruct (exec (objs s (dob d))); injection H as <-.
      + apply (XInv_pass s); [exact HI| |reflexivity|cbn; rewrite app_length; cbn; lia].
        apply (perm_trans P), (perm_trans (Permutation_middle _ _ _)), Permutation_app_head, wtasks_snoc.
      + apply (XInv_drop s _ (dt d) HI); [exact P|reflexivity|cbn; lia].
    - destruct (takeout (d, WRun) (work s)); [|discriminate]. injection H as <-. destruct HI; split; assumption.
    - (* the run is over *)
      destruct (takeout (d, WRun) (work s)) as [w'|] eqn:T; [|discriminate].
      pose proof (owners_takeout _ _ _ T) as P. pose proof (takeout_length _ _ _ T) as Ln. injection H as <-.
      apply (XInv_drop s _ (dt d) HI); [exact P|reflexivity|cbn; lia].
    - injection H as <-. destruct HI; split; assumption.
  Qed.

  Theorem xinv_reach f ls s : xrun nworkers false (xinit f) ls = Some s -> XInv s.
  Proof. exact (run_inv (xstep nworkers false) XInv xinv_step ls _ _ (xinv_init f)). Qed.

  Theorem registered_has_owner f ls s t :
    xrun nworkers false (xinit f) ls = Some s -> reg s t = true ->
    (exists d, held s = Some d /\ dt d = t) \/ (exists d ph, In (d, ph) (work s) /\ dt d = t).
  Proof.
    intros H Rg. apply xinv_reach in H. apply (x_reg _ H) in Rg. unfold owners in Rg. apply in_app_or in Rg as [I|I].
    - destruct (held s) as [d|]; [|contradiction]. left. exists d. cbn in I. destruct I as [I|[]]. auto.
    - right. apply in_map_iff in I as [[d ph] [E I]]. exists d, ph. auto.
  Qed.

  Theorem idle_means_unregistered f ls s t :
    xrun nworkers false (xinit f) ls = Some s -> idle s = true -> reg s t = false.
  Proof.
    intros H I. apply xinv_reach in H. destruct (reg s t) eqn:E; [|reflexivity].
    apply (x_reg _ H) in E. unfold owners, idle in *. destruct (held s); [discriminate|]. destruct (work s); [contradiction|discriminate].
  Qed.

  Theorem executor_waits_only_for_runs f ls s :
    xrun nworkers false (xinit f) ls = Some s -> internal_enabled nworkers s = false ->
    (forall d ph, In (d, ph) (work s) -> ph = WRun) /\
    (held s <> None -> length (work s) = nworkers) /\
    (initq s <> [] -> held s <> None).
  Proof.
    intros H E. apply xinv_reach in H. unfold internal_enabled in E.
    apply orb_false_iff in E as [E E3]. apply orb_false_iff in E as [E1 E2]. split; [|split].
    - intros d ph I. destruct ph; [|reflexivity]. exfalso.
      assert (X : existsb (fun p => wph_eqb (snd p) WTaken) (work s) = true) by (apply existsb_exists; exists (d, WTaken); auto).
      congruence.
    - intros N. destruct (held s); [|congruence]. apply Nat.ltb_ge in E2. pose proof (x_cap _ H). lia.
    - intros N. destruct (held s); [discriminate|]. destruct (initq s); [congruence|discriminate].
  Qed.

End F.

(** the code before fix de0061a (leak = true): the history of the directed kind duppath.  One worker; object 1 is
    task 5's, handed over twice (two paths), object 2 is task 3's, handed over in between. *)
Definition d5 := {| dt := 5; dob := 1%nat |}.
Definition d3 := {| dt := 3; dob := 2%nat |}.
Definition w_leak : list xl :=
  [XPush 5 1; XInitTake; XHand; XCheck d5;          (* first t5: registered, handed to the worker, running *)
   XPush 3 2; XInitTake;                            (* t3: registered, waits for the worker *)
   XPush 5 1;                                       (* second t5 (same object): its pusher waits behind t3 *)
   XSet d5 SFailed; XEnd d5;                        (* the first run fails and leaves the cancel map *)
   XHand; XInitTake;                                (* t3 goes to the worker; second t5 is REGISTERED (nothing is registered for t5) *)
   XCheck d3; XSet d3 SSuccess; XEnd d3;
   XHand; XCheck d5].                               (* second t5: the object says failed - refused *)

Example no_leak_same_history :
  exists s, xrun 1 false (xinit (fun _ => SContinue)) w_leak = Some s /\ idle s = true /\ reg s 5 = false /\ entries s = [(1%nat, SFailed); (2%nat, SSuccess)].
Proof. eexists; split; [vm_compute; reflexivity | repeat split; vm_compute; reflexivity]. Qed.
