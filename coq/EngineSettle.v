(** Engine: the instance settles, and its verdict agrees with its tasks (C03, C04).

    Hypotheses on the histories: [cmdquiet] (a command is issued and picked up only while nothing is in
    flight for the instance) and [nonoop] (an executed command re-armed at least one task); [validate] is
    NOT assumed - under [cmdquiet] no stale delivery can arise (part of the invariant).  Each hypothesis is
    necessary: EngineRefute.v has a history of the unrestricted system for each that ends quiescent with the
    instance running for ever, or failed with no failed task.

    The invariant is a token discipline: every task that the parser's tree shows as reachable and active has
    exactly one token - a valid delivery under way, a registered run, or a queued completion event - or is
    recorded running with no run (awaiting the watchdog).  [InvQ] states it over the queues; the proofs go
    task by task: [view s x] is what the queues and the executor hold for [x], [place] says where its one
    token is, [Task s x] is what [InvQ] says of [x] as a predicate of what it reads ([invq_task], [tasks_invq]).
    A step that moves the token of one task along the graph [hop] ([moves]) is handled once ([invq_moves]); every
    other step proves [Task] where it acts and carries the other tasks over by [task_frame]. *)
From Coq Require Import List ZArith Bool Lia.
From FF Require Import Lts Engine EngineFacts.
Import ListNotations.
Local Open Scope Z_scope.

Definition evfor (s : eng) (t : Z) : Prop := exists st, In (t, st) (evq s).
(** deliveries not yet accepted by the executor: still with the pusher, or on their way *)
Definition dl (s : eng) : list (Z * est) := pushq s ++ pend s.
Definition inpend (s : eng) (t : Z) : Prop := exists sn, In (t, sn) (dl s).

Lemma exec_active s : exec s = true -> active s = true.
Proof. destruct s; cbn; congruence. Qed.

Lemma some_registered (ru : Z -> rpc) l : forallb (fun t => is_none (ru t)) l = false -> exists t, In t l /\ ru t <> RNone.
Proof.
  induction l as [|x xs IH]; cbn; intros H; [discriminate|].
  destruct (ru x) eqn:E; cbn in H; try (exists x; split; [left; reflexivity|congruence]).
  destruct (IH H) as (t & A & B). exists t. split; [right; exact A|exact B].
Qed.

Lemma remove1_other p l l' x : remove1 p l = Some l' -> In x l -> fst x <> fst p -> In x l'.
Proof.
  intros H. destruct (remove1_split _ _ _ H) as (a & b & -> & ->). intros Hin Hne. apply in_app_or in Hin. apply in_or_app.
  destruct Hin as [Hin|[<-|Hin]]; [left; exact Hin|congruence|right; exact Hin].
Qed.

(** the statuses with which [x] stands in a queue *)
Definition sts (x : Z) (l : list (Z * est)) : list est := map snd (filter (fun p => Z.eqb (fst p) x) l).

Lemma sts_in x v l : In v (sts x l) <-> In (x, v) l.
Proof.
  unfold sts. rewrite in_map_iff. split.
  - intros ((y, w) & E & H). apply filter_In in H. destruct H as (H & Hy). apply Z.eqb_eq in Hy. cbn in E, Hy. subst. exact H.
  - intros H. exists (x, v). split; [reflexivity|]. apply filter_In. split; [exact H|apply Z.eqb_refl].
Qed.

Lemma sts_app x l1 l2 : sts x (l1 ++ l2) = sts x l1 ++ sts x l2.
Proof. unfold sts. rewrite filter_app. apply map_app. Qed.

Lemma sts_cons x t v l : sts x ((t, v) :: l) = (if Z.eqb t x then [v] else []) ++ sts x l.
Proof. unfold sts. cbn. destruct (Z.eqb t x); reflexivity. Qed.

Lemma sts_snoc_same t l v : sts t (l ++ [(t, v)]) = sts t l ++ [v].
Proof. rewrite sts_app, sts_cons, Z.eqb_refl. reflexivity. Qed.

Lemma sts_snoc_other x l t v : x <> t -> sts x (l ++ [(t, v)]) = sts x l.
Proof. intros Hne. rewrite sts_app, sts_cons. destruct (Z.eqb_spec t x); [congruence|]. apply app_nil_r. Qed.

Global Arguments sts : simpl never.

Lemma sts_nil l : (forall x, sts x l = []) -> l = [].
Proof. destruct l as [|(t, v) r]; [reflexivity|]. intros H. specialize (H t). rewrite sts_cons, Z.eqb_refl in H. discriminate. Qed.

Lemma count_sts x l : count_occ Z.eq_dec (map fst l) x = length (sts x l).
Proof.
  induction l as [|(t, v) r IH]; [reflexivity|]. rewrite sts_cons. cbn.
  destruct (Z.eq_dec t x) as [->|Hne]; [rewrite Z.eqb_refl|destruct (Z.eqb_spec t x); [contradiction|]]; cbn; rewrite IH; reflexivity.
Qed.

Lemma nodup_sts l : NoDup (map fst l) <-> forall x, (length (sts x l) <= 1)%nat.
Proof. rewrite (NoDup_count_occ Z.eq_dec). split; intros H x; [rewrite <- count_sts|rewrite count_sts]; apply H. Qed.

Lemma sts_remove1_other p l l' x : remove1 p l = Some l' -> x <> fst p -> sts x l' = sts x l.
Proof.
  intros H Hne. destruct (remove1_split _ _ _ H) as (a & b & -> & ->). destruct p as (t, v). rewrite !sts_app, sts_cons.
  destruct (Z.eqb_spec t x); [cbn in Hne; congruence|reflexivity].
Qed.

Lemma sts_remove1_same t v l l' w : remove1 (t, v) l = Some l' -> sts t l = [w] -> sts t l' = [].
Proof.
  intros H. destruct (remove1_split _ _ _ H) as (a & b & -> & ->). rewrite !sts_app, sts_cons, Z.eqb_refl.
  destruct (sts t a) as [|u [|]]; cbn; [|discriminate..]. intros [= _ ->]. reflexivity.
Qed.

Lemma short_cases {A} (l : list A) : (length l <= 1)%nat -> l = [] \/ exists v, l = [v].
Proof. destruct l as [|v [|]]; cbn; [auto|eauto|lia]. Qed.

(** where the token of a task is: with a pusher, on its way to the executor, a registered run, a queued event *)
Inductive place := Pushing (sn : est) | Pending (sn : est) | Run (r : rpc) | Event (ev : est).

(** what the executor, the event queue, the pushers and the deliveries under way then hold for the task *)
Definition spread (P : place) : rpc * list est * list est * list est :=
  match P with
  | Pushing sn => (RNone, [], [sn], [])
  | Pending sn => (RNone, [], [], [sn])
  | Run r => (r, [], [], [])
  | Event ev => (RNone, [ev], [], [])
  end.

Definition view (s : eng) (x : Z) : rpc * list est * list est * list est := (runs s x, sts x (evq s), sts x (pushq s), sts x (pend s)).

Section Settle.
  Variable tasks : list Z.
  Variable deps : Z -> list Z.
  Variable validate : bool.
  Variable rank : Z -> nat.
  Hypothesis Hnd : NoDup tasks.
  Hypothesis Hrank : forall t d, In d (deps t) -> (rank d < rank t)%nat.
  Hypothesis Hclosed : forall t d, In t tasks -> In d (deps t) -> In d tasks.

  Notation pdone := (parents_done deps).
  Notation stepq := (step tasks deps validate true true).

  Lemma pdone_upd_inv f k v x : pdone (upd f k v) x = true -> pdone f x = true \/ (In k (deps x) /\ done v = true).
  Proof.
    unfold parents_done. intros Hp. destruct (in_dec Z.eq_dec k (deps x)) as [Hin|Hni].
    - rewrite forallb_forall in Hp. pose proof (Hp k Hin) as H. rewrite upd_same in H. right. split; assumption.
    - left. rewrite forallb_forall in *. intros d Hd. specialize (Hp d Hd). rewrite upd_other in Hp; [exact Hp|].
      intros ->. contradiction.
  Qed.

  Lemma not_self_dep t : ~ In t (deps t).
  Proof. intros H. pose proof (Hrank t t H). lia. Qed.

  (** the walk's verdict: a witness among the tasks it reaches; success when it reaches no task that is not finished, and
      then (by induction on the rank) it reaches them all *)
  Lemma reached_wit (p : est -> bool) f :
    if existsb (fun t => pdone f t && p (f t)) tasks then exists t, In t tasks /\ pdone f t = true /\ p (f t) = true
    else forall t, In t tasks -> pdone f t = true -> p (f t) = false.
  Proof.
    destruct (existsb (fun t => pdone f t && p (f t)) tasks) eqn:E.
    - apply existsb_exists in E. destruct E as (t & Hin & Ht). apply andb_true_iff in Ht. exists t. tauto.
    - intros t Hin Hp. destruct (p (f t)) eqn:Ep; [|reflexivity]. rewrite <- E. symmetry. apply existsb_exists.
      exists t. rewrite Hp, Ep. auto.
  Qed.

  Lemma verdict_spec pb f :
    match verdict_of tasks deps pb f with
    | VRunning => exists t, In t tasks /\ pdone f t = true /\ active (f t) = true
    | VSuccess => forall t, In t tasks -> done (f t) = true
    | VFailed => exists t, In t tasks /\ pdone f t = true /\ f t = SFailed
    | VBlocked => exists t, In t tasks /\ pdone f t = true /\ f t = SBlocked
    end.
  Proof.
    pose proof (reached_wit active f) as HA. pose proof (reached_wit (fun st => est_eqb st SFailed) f) as HF.
    pose proof (reached_wit (fun st => est_eqb st SBlocked) f) as HB. unfold verdict_of.
    destruct (existsb (fun t => pdone f t && active (f t)) tasks); [exact HA|]. cbv zeta.
    assert (W : forall v, (exists t, In t tasks /\ pdone f t = true /\ est_eqb (f t) v = true) -> exists t, In t tasks /\ pdone f t = true /\ f t = v).
    { intros v (t & A & B & C). exists t. apply est_eqb_eq in C. auto. }
    destruct (existsb (fun t => pdone f t && est_eqb (f t) SFailed) tasks);
      destruct (existsb (fun t => pdone f t && est_eqb (f t) SBlocked) tasks); [destruct pb|..]; cbn; auto.
    assert (H : forall t, In t tasks -> pdone f t = true -> done (f t) = true).
    { intros t Hin Hp. specialize (HA t Hin Hp). specialize (HF t Hin Hp). specialize (HB t Hin Hp).
      destruct (f t); cbn in *; congruence. }
    assert (G : forall n t, (rank t < n)%nat -> In t tasks -> done (f t) = true).
    { induction n as [|n IH]; intros t Hr Hin; [lia|].
      apply H; [exact Hin|]. apply forallb_forall. intros d Hd. apply IH; [pose proof (Hrank t d Hd); lia|eapply Hclosed; eassumption]. }
    intros t Hin. apply (G (S (rank t))); [lia|exact Hin].
  Qed.

  Lemma verdict_running pb f t : In t tasks -> pdone f t = true -> active (f t) = true -> verdict_of tasks deps pb f = VRunning.
  Proof.
    intros Hin Hp Ha. pose proof (reached_wit active f) as HA. unfold verdict_of.
    destruct (existsb (fun t => pdone f t && active (f t)) tasks); [reflexivity|]. rewrite (HA t Hin Hp) in Ha. discriminate.
  Qed.

  Definition rearmed (st : est) : Prop := st = SRetrying \/ st = SContinue.
  Definition ev_st (st : est) : Prop := st = SInit \/ st = SSuccess \/ st = SFailed \/ st = SSkipped \/ st = SBlocked.

  (** The clauses by group.  q1-q5: every token - delivery, queued event, registered run - fits the persisted status,
      and a task has at most one.  q6: whoever holds a token is reachable and executable in the tree.  q7: where tree
      and store may differ: at a task with a run or an event, after the watchdog's write, after a command's re-arming.
      q8: a reachable executable task that the tree has as recorded holds a token.  q9: a live tree shows a reachable
      active task.  q10-q10d, g3: the phases of a command and of a restart.  q11, q12: a task recorded running with no
      run, before and after the watchdog.  qK: what the tree has finished is recorded so; qF: what is not recorded init
      is a task whose dependencies are recorded finished.  g1-g2b: what the instance verdict rests on. *)
  Record InvQ (s : eng) : Prop := {
    q1 : forall c sn, In (c, sn) (dl s) ->
           sn = store s c /\ exec sn = true /\ runs s c = RNone /\ ~ evfor s c /\ In c tasks;
    q2 : NoDup (map fst (dl s));
    q3 : forall t st, In (t, st) (evq s) -> store s t = st /\ runs s t = RNone /\ ev_st st /\ In t tasks;
    q4 : NoDup (map fst (evq s));
    q5 : forall t, match runs s t with
                   | RNone => True
                   | RQueued sn => store s t = sn /\ exec sn = true /\ In t tasks
                   | RRunning | RInMain => store s t = SRunning /\ In t tasks
                   | REnding => store s t = SEnding /\ In t tasks
                   | RDone ev => store s t = ev /\ (ev = SInit \/ ev = SSuccess \/ ev = SFailed) /\ In t tasks
                   end;
    q6 : forall t, runs s t <> RNone \/ evfor s t \/ inpend s t ->
           tree s = true /\ pdone (know s) t = true /\ exec (know s t) = true;
    q7 : tree s = true -> forall t, In t tasks ->
           know s t = store s t \/ runs s t <> RNone \/ evfor s t \/ (know s t = SRunning /\ store s t = SFailed)
           \/ (rearmed (store s t) /\ ph s <> PIdle);
    q8 : tree s = true -> forall t, In t tasks -> pdone (know s) t = true -> exec (know s t) = true ->
           know s t = store s t -> runs s t = RNone -> ~ evfor s t -> In (t, store s t) (dl s);
    q9 : tree s = true -> exists t, In t tasks /\ pdone (know s) t = true /\ active (know s t) = true;
    q10 : ph s <> PIdle -> evq s = [] /\ dl s = [] /\ (forall t, runs s t = RNone);
    q10b : ph s = PDown -> tree s = false;
    q10c : ph s = PInit -> armed s = true;
    q10d : ph s = PArm \/ ph s = PInit -> armed s = true ->
           exists t, In t tasks /\ rearmed (store s t) /\ pdone (store s) t = true;
    q11 : tree s = false -> ph s = PIdle -> ins s = IRunning ->
          exists t, In t tasks /\ store s t = SRunning /\ runs s t = RNone;
    q12 : tree s = true -> ph s = PIdle -> forall t, In t tasks -> know s t = SRunning -> store s t = SFailed -> ins s = IFailed;
    qK : forall t, done (know s t) = true -> store s t = know s t;
    qF : forall t, store s t <> SInit -> In t tasks /\ pdone (store s) t = true;
    g1 : ins s = ISuccess -> forall t, In t tasks -> done (store s t) = true;
    g2 : ins s = IFailed -> cmd s = false -> exists t, In t tasks /\ store s t = SFailed;
    g2b : ins s = IBlocked -> cmd s = false -> exists t, In t tasks /\ store s t = SBlocked;
    g3 : ph s = PArm -> cmd s = true
  }.

  Lemma invq_boot : InvQ (boot).
  Proof.
    constructor; cbn; intros; try discriminate; try contradiction; try congruence; auto.
    - constructor.
    - constructor.
    - exfalso. destruct H as [H|[(st & H)|(sn & H)]]; [congruence|exact H|exact H].
  Qed.

  (** [keepq s HI] splits the goal [InvQ s'] into its clauses and closes those that [s] and [s'] share up to conversion.
      Each clause is offered its own projection only: [apply HI] would try all 21 at every clause, which is slow to check. *)
  Ltac keepq s HI :=
    constructor;
    [try exact (q1 s HI)|try exact (q2 s HI)|try exact (q3 s HI)|try exact (q4 s HI)|try exact (q5 s HI)|try exact (q6 s HI)
    |try exact (q7 s HI)|try exact (q8 s HI)|try exact (q9 s HI)|try exact (q10 s HI)|try exact (q10b s HI)|try exact (q10c s HI)
    |try exact (q10d s HI)|try exact (q11 s HI)|try exact (q12 s HI)|try exact (qK s HI)|try exact (qF s HI)|try exact (g1 s HI)
    |try exact (g2 s HI)|try exact (g2b s HI)|try exact (g3 s HI)].

  Lemma pdone_know_store s t : InvQ s -> pdone (know s) t = true -> pdone (store s) t = true.
  Proof. intros HI. apply pdone_mono. intros d Hd. rewrite (qK s HI d Hd). exact Hd. Qed.

  Lemma inflight_pdone_store s t : InvQ s -> runs s t <> RNone \/ evfor s t \/ inpend s t -> pdone (store s) t = true.
  Proof. intros HI H. apply (pdone_know_store s t HI). apply (q6 s HI t H). Qed.

  Lemma q5_fits s t : InvQ s -> fits (runs s t) (store s t) /\ (runs s t <> RNone -> In t tasks).
  Proof. intros HI. pose proof (q5 s HI t) as H. destruct (runs s t); cbn; [split; [exact I|congruence]|repeat split; try (intros _); apply H..]. Qed.

  (** the persisted status [st] and the tree's [kn] are those the token stands for *)
  Definition fit (P : place) (st kn : est) : Prop :=
    match P with
    | Pushing sn | Pending sn => sn = st /\ kn = st
    | Run r => fits r st
    | Event ev => st = ev /\ ev_st ev
    end.

  (** The invariant, task by task: what [InvQ] says of one task, as a predicate of what it reads of the state.
      A task that holds a token is reachable and executable in the tree, no command is being executed, and its
      status fits the token.  One that holds none (its place is [Run RNone]) is not, where the tree has it as it is
      recorded, both reachable and executable there; or the tree has it running and it is recorded failed (the
      watchdog), or a command has re-armed it. *)
  Inductive TaskOk (tr : bool) (p : phase) (i : ist) (inT : Prop) (v : rpc * list est * list est * list est) (st kn : est) (pk : bool) : Prop :=
    task_ok P :
      v = spread P ->
      (P <> Run RNone -> fit P st kn /\ inT /\ tr = true /\ pk = true /\ exec kn = true /\ p = PIdle) ->
      (P = Run RNone -> tr = true -> inT ->
         (pk = true -> exec kn = true -> kn <> st) /\ (kn = st \/ (kn = SRunning /\ st = SFailed) \/ (rearmed st /\ p <> PIdle))) ->
      (tr = true -> p = PIdle -> inT -> kn = SRunning -> st = SFailed -> i = IFailed) ->
      (done kn = true -> st = kn) ->
      (i = ISuccess -> inT -> done st = true) ->
      TaskOk tr p i inT v st kn pk.
  Arguments task_ok {tr p i inT v st kn pk} P.

  Definition Task (s : eng) (x : Z) : Prop :=
    TaskOk (tree s) (ph s) (ins s) (In x tasks) (view s x) (store s x) (know s x) (pdone (know s) x).

  (** the clauses that are about no task in particular *)
  Record Glob (s : eng) : Prop := {
    G9 : tree s = true -> exists t, In t tasks /\ pdone (know s) t = true /\ active (know s t) = true;
    G10b : ph s = PDown -> tree s = false;
    G10c : ph s = PInit -> armed s = true;
    G10d : ph s = PArm \/ ph s = PInit -> armed s = true ->
           exists t, In t tasks /\ rearmed (store s t) /\ pdone (store s) t = true;
    G11 : tree s = false -> ph s = PIdle -> ins s = IRunning ->
          exists t, In t tasks /\ store s t = SRunning /\ runs s t = RNone;
    GF : forall t, store s t <> SInit -> In t tasks /\ pdone (store s) t = true;
    G2 : ins s = IFailed -> cmd s = false -> exists t, In t tasks /\ store s t = SFailed;
    G2b : ins s = IBlocked -> cmd s = false -> exists t, In t tasks /\ store s t = SBlocked;
    G3 : ph s = PArm -> cmd s = true
  }.

  (** [keepq] for the goal [Glob s'] *)
  Ltac keepg s HI :=
    constructor;
    [try exact (q9 s HI)|try exact (q10b s HI)|try exact (q10c s HI)|try exact (q10d s HI)|try exact (q11 s HI)|try exact (qF s HI)
    |try exact (g2 s HI)|try exact (g2b s HI)|try exact (g3 s HI)].

  Lemma task_frame s s' x :
    tree s' = tree s -> ph s' = ph s -> ins s' = ins s -> view s' x = view s x -> store s' x = store s x -> know s' x = know s x ->
    pdone (know s') x = pdone (know s) x -> Task s x -> Task s' x.
  Proof. unfold Task. intros -> -> -> -> -> -> ->. exact (fun H => H). Qed.

  Lemma some_sts x l : (exists v, In (x, v) l) <-> sts x l <> [].
  Proof.
    split.
    - intros (v & H) E. apply sts_in in H. rewrite E in H. exact H.
    - destruct (sts x l) as [|v r] eqn:E; [congruence|]. intros _. exists v. apply sts_in. rewrite E. left. reflexivity.
  Qed.

  Lemma inflight_idle s x : InvQ s -> runs s x <> RNone \/ evfor s x \/ inpend s x ->
    tree s = true /\ pdone (know s) x = true /\ exec (know s x) = true /\ ph s = PIdle.
  Proof.
    intros HI H. destruct (q6 s HI x H) as (A & B & C). repeat split; try assumption.
    destruct (ph s) eqn:E; [reflexivity|..]; exfalso; destruct (q10 s HI) as (Qe & Qd & Qr); try congruence;
      (destruct H as [H|[(st & H)|(sn & H)]]; [exact (H (Qr x))|rewrite Qe in H; exact H|rewrite Qd in H; exact H]).
  Qed.

  Lemma invq_task s x : InvQ s -> Task s x.
  Proof.
    intros HI. pose proof (fun A B => q12 s HI A B x) as H12. pose proof (qK s HI x) as HK. pose proof (fun A => g1 s HI A x) as H1.
    unfold Task, view.
    destruct (short_cases _ (proj1 (nodup_sts _) (q4 s HI) x)) as [He|(ev & He)];
      destruct (short_cases _ (proj1 (nodup_sts _) (q2 s HI) x)) as [Hd|(sn & Hd)]; unfold dl in Hd; rewrite sts_app in Hd.
    - (* neither an event nor a delivery: the token, if there is one, is the run *)
      apply app_eq_nil in Hd. destruct Hd as (Hq & Hp). rewrite He, Hq, Hp. destruct (q5_fits s x HI) as (H5 & H5').
      refine (task_ok (Run (runs s x)) eq_refl _ _ H12 HK H1).
      + intros Hr. assert (Hr' : runs s x <> RNone) by congruence.
        destruct (inflight_idle s x HI (or_introl Hr')) as (T & K & X & I). repeat split; auto.
      + intros [= Hr] T E. assert (Hne : ~ evfor s x) by (intros F; apply some_sts in F; exact (F He)). split.
        * intros K X Q. pose proof (q8 s HI T x E K X Q Hr Hne) as F. apply sts_in in F. unfold dl in F. rewrite sts_app, Hq, Hp in F. exact F.
        * destruct (q7 s HI T x E) as [F|[F|[F|F]]]; auto; contradiction.
    - (* a delivery, with a pusher or under way *)
      assert (Hin : In (x, sn) (dl s)) by (apply sts_in; unfold dl; rewrite sts_app, Hd; left; reflexivity).
      destruct (q1 s HI x sn Hin) as (A & _ & C & D & E).
      destruct (inflight_idle s x HI (or_intror (or_intror (ex_intro _ sn Hin)))) as (T & K & X & I).
      assert (Hk : know s x = store s x).
      { destruct (q7 s HI T x E) as [F|[F|[F|[(F & _)|(_ & F)]]]]; [exact F|contradiction|contradiction| |contradiction]. rewrite F in X. discriminate. }
      apply app_eq_unit in Hd. rewrite C, He.
      destruct Hd as [(-> & ->)|(-> & ->)]; [refine (task_ok (Pending sn) eq_refl _ _ H12 HK H1)|refine (task_ok (Pushing sn) eq_refl _ _ H12 HK H1)];
        try discriminate; intros _; repeat split; assumption.
    - (* an event *)
      assert (Hin : In (x, ev) (evq s)) by (apply sts_in; rewrite He; left; reflexivity).
      destruct (q3 s HI x ev Hin) as (A & B & C & D).
      destruct (inflight_idle s x HI (or_intror (or_introl (ex_intro _ ev Hin)))) as (T & K & X & I).
      apply app_eq_nil in Hd. destruct Hd as (-> & ->). rewrite B, He. refine (task_ok (Event ev) eq_refl _ _ H12 HK H1); [intros _|discriminate].
      repeat split; assumption.
    - (* both: excluded by q1 *)
      exfalso. assert (Hin : In (x, sn) (dl s)) by (apply sts_in; unfold dl; rewrite sts_app, Hd; left; reflexivity).
      destruct (q1 s HI x sn Hin) as (_ & _ & _ & D & _). apply D. exists ev. apply sts_in. rewrite He. left. reflexivity.
  Qed.

  Lemma tok_inv s x P : view s x = spread P ->
    (runs s x <> RNone -> P = Run (runs s x)) /\ (forall v, In (x, v) (evq s) -> P = Event v) /\
    (forall v, In (x, v) (pushq s) -> P = Pushing v) /\ (forall v, In (x, v) (pend s) -> P = Pending v).
  Proof.
    intros Hv. unfold view in Hv.
    destruct P; injection Hv as A B C D; (split; [intros H; congruence|]);
      (split; [intros v H; apply sts_in in H; rewrite B in H|split; intros v H; apply sts_in in H; [rewrite C in H|rewrite D in H]]);
      try contradiction; destruct H as [->|[]]; reflexivity.
  Qed.

  Lemma tasks_invq s : (forall x, Task s x) -> Glob s -> InvQ s.
  Proof.
    intros HT HG.
    assert (Hlen : forall x, (length (sts x (evq s)) <= 1 /\ length (sts x (dl s)) <= 1)%nat).
    { intros x. destruct (HT x) as [P Hv _ _ _ _ _]. unfold dl. rewrite sts_app. destruct P; injection Hv as _ -> -> ->; repeat constructor. }
    refine (Build_InvQ s _ _ _ _ _ _ _ _ (G9 s HG) _ (G10b s HG) (G10c s HG) (G10d s HG) (G11 s HG) _ _ (GF s HG) _ (G2 s HG) (G2b s HG) (G3 s HG)).
    - (* q1 *) intros c sn Hc. destruct (HT c) as [P Hv HP _ _ _ _]. destruct (tok_inv s c P Hv) as (_ & _ & Iq & Ip).
      apply in_app_or in Hc. assert (P = Pushing sn \/ P = Pending sn) as [-> | ->] by (destruct Hc; auto);
        injection Hv as A B C D; (destruct HP as ((E & F) & G & _ & _ & X & _); [discriminate|]); (repeat split; [exact E|congruence|exact A| |exact G]);
        intros (st & H); apply sts_in in H; rewrite B in H; exact H.
    - (* q2 *) apply nodup_sts. apply Hlen.
    - (* q3 *) intros x ev Hx. destruct (HT x) as [P Hv HP _ _ _ _]. destruct (tok_inv s x P Hv) as (_ & Ie & _). rewrite (Ie ev Hx) in Hv, HP.
      injection Hv as A _. destruct HP as ((E & F) & G & _); [discriminate|]. auto.
    - (* q4 *) apply nodup_sts. apply Hlen.
    - (* q5 *) intros x. destruct (HT x) as [P Hv HP _ _ _ _]. destruct (tok_inv s x P Hv) as (Ir & _).
      destruct (runs s x) eqn:Er; [exact I|..]; rewrite Ir in HP by discriminate; (destruct HP as (E & G & _); [discriminate|]);
        [destruct E as (E & E')| | | |destruct E as (E & E')]; repeat split; assumption.
    - (* q6 *) intros x Hx. destruct (HT x) as [P Hv HP _ _ _ _]. destruct HP as (_ & _ & T & K & X & _); [|auto]. intros ->. injection Hv as A B C D.
      destruct Hx as [Hx|[Hx|Hx]]; [exact (Hx A)|apply some_sts in Hx; exact (Hx B)|].
      apply some_sts in Hx. unfold dl in Hx. rewrite sts_app, C, D in Hx. exact (Hx eq_refl).
    - (* q7 *) intros T x Hx. destruct (HT x) as [P Hv HP HN _ _ _]. unfold view in Hv. destruct P as [| |r|]; injection Hv as A B C D.
      + left. apply HP. discriminate.
      + left. apply HP. discriminate.
      + rewrite A. destruct r; [|right; left; discriminate..]. destruct (HN eq_refl T Hx) as (_ & [E|[E|E]]); auto.
      + right. right. left. apply some_sts. rewrite B. discriminate.
    - (* q8 *) intros T x Hx K X E R V. destruct (HT x) as [P Hv HP HN _ _ _]. unfold view in Hv. unfold dl. apply in_or_app.
      destruct P; injection Hv as A B C D.
      + left. apply sts_in. rewrite C. destruct HP as ((-> & _) & _); [discriminate|]. left. reflexivity.
      + right. apply sts_in. rewrite D. destruct HP as ((-> & _) & _); [discriminate|]. left. reflexivity.
      + rewrite <- A, R in HN. destruct (HN eq_refl T Hx) as (N & _). destruct (N K X E).
      + destruct V. apply some_sts. rewrite B. discriminate.
    - (* q10: a token needs [ph s = PIdle] *)
      intros Hp.
      assert (N : forall x, view s x = spread (Run RNone)).
      { intros x. destruct (HT x) as [P Hv HP _ _ _ _]. rewrite Hv. f_equal.
        destruct P as [| |[]|]; try reflexivity; (destruct HP as (_ & _ & _ & _ & _ & E); [discriminate|contradiction]). }
      split; [|split].
      + apply sts_nil. intros x. specialize (N x). injection N as _ B _ _. exact B.
      + apply sts_nil. intros x. specialize (N x). injection N as _ _ C D. unfold dl. rewrite sts_app, C, D. reflexivity.
      + intros x. specialize (N x). injection N as A _. exact A.
    - (* q12 *) intros T Hp x. destruct (HT x) as [_ _ _ _ H _ _]. exact (H T Hp).
    - (* qK *) intros x. destruct (HT x) as [_ _ _ _ _ H _]. exact H.
    - (* g1 *) intros Hi x. destruct (HT x) as [_ _ _ _ _ _ H]. exact (H Hi).
  Qed.

  Lemma spread_inj P Q : spread P = spread Q -> P = Q.
  Proof. destruct P, Q; cbn; intros [=]; congruence. Qed.

  Lemma task_tok s x P : InvQ s -> view s x = spread P -> P <> Run RNone ->
    fit P (store s x) (know s x) /\ In x tasks /\ tree s = true /\ pdone (know s) x = true /\ exec (know s x) = true /\ ph s = PIdle.
  Proof.
    intros HI Hv. destruct (invq_task s x HI) as [Q Hq HQ _ _ _ _]. rewrite Hv in Hq. rewrite (spread_inj P Q Hq). exact HQ.
  Qed.

  (** a status is written for [t]: what the clauses that read the store alone need *)
  Lemma written_reached s f t : InvQ s -> In t tasks -> pdone (store s) t = true ->
    (forall x, x <> t -> f x = store s x) -> (done (store s t) = true -> f t = store s t) ->
    forall x, f x <> SInit -> In x tasks /\ pdone f x = true.
  Proof.
    intros HI Hin Hp Ho Hd.
    assert (M : forall x, pdone (store s) x = true -> pdone f x = true).
    { intros x. apply pdone_mono. intros d D. destruct (Z.eq_dec d t) as [->|Hne]; [rewrite (Hd D)|rewrite (Ho d Hne)]; exact D. }
    intros x Hx. destruct (Z.eq_dec x t) as [->|Hne]; [auto|]. rewrite (Ho x Hne) in Hx. destruct (qF s HI x Hx) as (A & B). auto.
  Qed.

  Lemma written_kept s f t v : (exists x, In x tasks /\ store s x = v) -> (forall x, x <> t -> f x = store s x) -> (store s t = v -> f t = v) ->
    exists x, In x tasks /\ f x = v.
  Proof.
    intros (x & A & B) Ho Ht. exists x. split; [exact A|]. destruct (Z.eq_dec x t) as [->|Hne]; [auto|]. rewrite (Ho x Hne). exact B.
  Qed.

  Lemma writing_active r st : writing r -> fits r st -> active st = true.
  Proof. destruct r; cbn; try contradiction; intros _ H; try (rewrite H; reflexivity). destruct H as (-> & H). exact (exec_active _ H). Qed.

  (** The token graph: where the token of a task can go in one step, and what is then recorded for the task when [st] was:
      Push hands it to the executor, the executor accepts it, the run moves on, is unregistered, or Push writes a verdict *)
  Inductive hop (st : est) : place -> place -> est -> Prop :=
  | H_pushrun sn : hop st (Pushing sn) (Pending sn) st
  | H_accept sn : hop st (Pending sn) (Run (RQueued sn)) st
  | H_run k r w r' : run_tr k r w r' -> hop st (Run r) (Run r') (wr st w)
  | H_finish ev : hop st (Run (RDone ev)) (Event ev) st
  | H_verdict sn v : v = SSkipped \/ v = SBlocked -> hop st (Pushing sn) (Event v) v.

  Lemma hop_tok st P P' st' : hop st P P' st' -> P <> Run RNone /\ P' <> Run RNone.
  Proof.
    intros [sn|sn|k r w r' Htr|ev|sn v _]; try (split; discriminate).
    destruct (run_tr_spec _ _ _ _ Htr) as (Hw & Hr' & _). split; [intros [= E]; rewrite E in Hw; exact Hw|congruence].
  Qed.

  Lemma hop_fit st P P' st' kn : hop st P P' st' -> fit P st kn -> exec kn = true -> fit P' st' kn /\ (st' = st \/ active st = true).
  Proof.
    intros [sn|sn|k r w r' Htr|ev|sn v Hv]; cbn.
    - intros F _. split; [exact F|left; reflexivity].
    - intros (A & B) X. split; [split; congruence|left; reflexivity].
    - intros F _. destruct (run_tr_spec _ _ _ _ Htr) as (Hw & _ & Hf & _). split; [exact (Hf _ F)|right; exact (writing_active _ _ Hw F)].
    - intros (A & [-> |[-> | ->]]) _; (split; [|left; reflexivity]); (split; [exact A|]); unfold ev_st; auto.
    - intros (A & B) X. split; [split; [reflexivity|unfold ev_st; destruct Hv as [-> | ->]; auto 6]|]. right. rewrite <- B. exact (exec_active _ X).
  Qed.

  Record moves (s s' : eng) (t : Z) (P P' : place) : Prop := {
    m_from : view s t = spread P;
    m_to : view s' t = spread P';
    m_rest : forall x, x <> t -> view s' x = view s x /\ store s' x = store s x;
    m_ctl : (know s', tree s', ph s', ins s', cmd s', armed s') = (know s, tree s, ph s, ins s, cmd s, armed s);
    m_hop : hop (store s t) P P' (store s' t)
  }.

  Lemma invq_moves s s' t P P' : InvQ s -> moves s s' t P P' -> InvQ s'.
  Proof.
    intros HI [Hf Ht Hrest Hctl Hhop]. injection Hctl as Ek Et Ep Ei Ec Ea. destruct (hop_tok _ _ _ _ Hhop) as (HP & HP').
    destruct (task_tok s t P HI Hf HP) as (F & Hin & T & K & X & I). destruct (hop_fit _ _ _ _ _ Hhop F X) as (F' & Hst).
    assert (Ho : forall x, x <> t -> store s' x = store s x) by (intros x Hne; apply (Hrest x Hne)).
    apply tasks_invq.
    - intros x. destruct (Z.eq_dec x t) as [->|Hne].
      + unfold Task. rewrite Et, Ep, Ei, Ek, T, K, I. apply (task_ok P' Ht).
        * intros _. split; [exact F'|]. repeat split; auto.
        * intros E. contradiction.
        * intros _ _ _ E. rewrite E in X. discriminate.
        * intros E. destruct (know s t); discriminate.
        * intros A _. pose proof (g1 s HI A t Hin) as B. destruct Hst as [->|C]; [exact B|]. destruct (store s t); discriminate.
      + destruct (Hrest x Hne) as (A & B). apply (task_frame s); try assumption; [rewrite Ek; reflexivity..|exact (invq_task s x HI)].
    - constructor; rewrite ?Et, ?Ep, ?Ei, ?Ec, ?Ea, ?Ek, ?T, ?I; try discriminate.
      + intros _. exact (q9 s HI T).
      + intros [E|E]; discriminate.
      + apply (written_reached s _ t HI Hin (pdone_know_store s t HI K) Ho). intros D. destruct Hst as [E|E]; [exact E|]. destruct (store s t); discriminate.
      + intros A B. apply (written_kept s _ t _ (g2 s HI A B) Ho). intros E. destruct Hst as [->|C]; [exact E|]. rewrite E in C. discriminate.
      + intros A B. apply (written_kept s _ t _ (g2b s HI A B) Ho). intros E. destruct Hst as [->|C]; [exact E|]. rewrite E in C. discriminate.
  Qed.

  Lemma tok_at s x : InvQ s ->
    (runs s x <> RNone -> view s x = spread (Run (runs s x))) /\ (forall v, In (x, v) (evq s) -> view s x = spread (Event v)) /\
    (forall v, In (x, v) (pushq s) -> view s x = spread (Pushing v)) /\ (forall v, In (x, v) (pend s) -> view s x = spread (Pending v)).
  Proof.
    intros HI. destruct (invq_task s x HI) as [P Hv _ _ _ _ _]. destruct (tok_inv s x P Hv) as (A & B & C & D).
    repeat split; intros; rewrite Hv; f_equal; auto.
  Qed.

  Lemma moved_moves s k t w r' : InvQ s -> run_tr k (runs s t) w r' -> moves s (moved s t w r') t (Run (runs s t)) (Run r').
  Proof.
    intros HI Htr. destruct (run_tr_spec _ _ _ _ Htr) as (Hw & _).
    assert (Hv : view s t = spread (Run (runs s t))) by (apply (tok_at s t HI); intros E; rewrite E in Hw; exact Hw).
    split; [exact Hv| | |reflexivity|].
    - injection Hv as A B C. unfold view. cbn. rewrite upd_same, A, B, C. reflexivity.
    - intros x Hne. unfold view. cbn. rewrite wstore_eq, !upd_other by exact Hne. split; reflexivity.
    - cbn. rewrite wstore_eq, upd_same. exact (H_run _ k _ w r' Htr).
  Qed.

  Lemma accept_moves s t sn p' : InvQ s -> remove1 (t, sn) (pend s) = Some p' ->
    moves s (set_pend (set_runs s (upd (runs s) t (RQueued sn))) p') t (Pending sn) (Run (RQueued sn)).
  Proof.
    intros HI Hr. assert (Hv : view s t = spread (Pending sn)) by (apply (tok_at s t HI); exact (remove1_mem _ _ _ Hr)).
    split; [exact Hv| | |reflexivity|exact (H_accept _ sn)].
    - injection Hv as A B C D. unfold view. cbn. rewrite upd_same, B, C, (sts_remove1_same _ _ _ _ _ Hr D). reflexivity.
    - intros x Hne. unfold view. cbn. rewrite upd_other, (sts_remove1_other _ _ _ x Hr) by exact Hne. split; reflexivity.
  Qed.

  Lemma finish_moves s t ev : InvQ s -> runs s t = RDone ev ->
    moves s (set_evq (set_runs s (upd (runs s) t RNone)) (evq s ++ [(t, ev)])) t (Run (RDone ev)) (Event ev).
  Proof.
    intros HI Hr. assert (Hv : view s t = spread (Run (RDone ev))) by (rewrite <- Hr; apply (tok_at s t HI); congruence).
    split; [exact Hv| | |reflexivity|exact (H_finish _ ev)].
    - injection Hv as A B C D. unfold view. cbn. rewrite upd_same, sts_snoc_same, B, C, D. reflexivity.
    - intros x Hne. unfold view. cbn. rewrite upd_other, sts_snoc_other by exact Hne. split; reflexivity.
  Qed.

  Lemma pushrun_moves s t sn q' : InvQ s -> remove1 (t, sn) (pushq s) = Some q' ->
    moves s (set_pend (set_pushq s q') (pend s ++ [(t, sn)])) t (Pushing sn) (Pending sn).
  Proof.
    intros HI Hr. assert (Hv : view s t = spread (Pushing sn)) by (apply (tok_at s t HI); exact (remove1_mem _ _ _ Hr)).
    split; [exact Hv| | |reflexivity|exact (H_pushrun _ sn)].
    - injection Hv as A B C D. unfold view. cbn. rewrite A, B, (sts_remove1_same _ _ _ _ _ Hr C), sts_snoc_same, D. reflexivity.
    - intros x Hne. unfold view. cbn. rewrite (sts_remove1_other _ _ _ x Hr), sts_snoc_other by exact Hne. split; reflexivity.
  Qed.

  Lemma verdict_moves s t sn v q' : InvQ s -> remove1 (t, sn) (pushq s) = Some q' -> v = SSkipped \/ v = SBlocked ->
    moves s (push_verdict s t v q') t (Pushing sn) (Event v).
  Proof.
    intros HI Hr Hsb. assert (Hv : view s t = spread (Pushing sn)) by (apply (tok_at s t HI); exact (remove1_mem _ _ _ Hr)).
    split; [exact Hv| | |reflexivity|cbn; rewrite upd_same; exact (H_verdict _ sn v Hsb)].
    - injection Hv as A B C D. unfold view. cbn. rewrite A, sts_snoc_same, B, (sts_remove1_same _ _ _ _ _ Hr C), D. reflexivity.
    - intros x Hne. unfold view. cbn. rewrite upd_other, (sts_remove1_other _ _ _ x Hr), sts_snoc_other by exact Hne. split; reflexivity.
  Qed.

  Lemma quiet_nothing_in_flight s : InvQ s -> quiet tasks s = true -> evq s = [] /\ dl s = [] /\ (forall t, runs s t = RNone).
  Proof.
    intros HI Hq. unfold quiet in Hq. unfold dl. destruct (evq s); [|discriminate]. destruct (pend s); [|discriminate].
    destruct (pushq s); [|discriminate].
    repeat split. intros t. rewrite forallb_forall in Hq.
    pose proof (q5 s HI t) as H5. destruct (runs s t) eqn:E; [reflexivity| | | | |];
      (assert (Hin : In t tasks) by tauto; specialize (Hq t Hin); rewrite E in Hq; discriminate).
  Qed.

  Lemma invq_crash s :
    InvQ s -> InvQ (set_armed (set_ph (set_tree (set_pushq (set_pend (set_evq (set_runs s (fun _ => RNone)) []) []) []) false) PDown) false).
  Proof.
    intros HI. keepq s HI; cbn; unfold dl; cbn; try (intros; discriminate); try (intros; contradiction).
    - constructor.
    - constructor.
    - intros t. exact Logic.I.
    - intros t [H|[(st & H)|(sn & H)]]; [congruence|contradiction|contradiction].
    - intros _. repeat split.
    - intros _. reflexivity.
  Qed.

  Lemma task_failed s x : Task s x -> Task (set_ins s IFailed) x.
  Proof. intros [P Hv HP HN _ HK _]. apply (task_ok P Hv HP HN); [reflexivity|exact HK|discriminate]. Qed.

  Lemma invq_wdfail s t :
    InvQ s -> store s t = SRunning -> runs s t = RNone -> InvQ (set_ins (set_store s (upd (store s) t SFailed)) IFailed).
  Proof.
    intros HI Hst Hr. destruct (qF s HI t) as (Hin & Hpd); [congruence|].
    assert (Hns : done (store s t) = false) by (rewrite Hst; reflexivity).
    apply tasks_invq.
    - intros x. destruct (Z.eq_dec x t) as [->|Hne];
        [|apply (task_frame (set_ins s IFailed)); try reflexivity; [apply upd_other; exact Hne|apply task_failed, invq_task, HI]].
      destruct (invq_task s t HI) as [P Hv HP HN _ HK _]. unfold Task. cbn. rewrite upd_same. apply (task_ok P Hv); [| |reflexivity| |discriminate].
      + (* a task recorded running with no run holds no token *)
        intros N. exfalso. destruct (HP N) as (F & _ & _ & _ & X & _). rewrite Hst in F.
        destruct P as [sn|sn|r|ev]; [destruct F as (_ & F); rewrite F in X; discriminate..| |].
        * injection Hv as A _. congruence.
        * destruct F as (<- & [F|[F|[F|[F|F]]]]); discriminate.
      + intros E T _. destruct (HN E T Hin) as (_ & [F|[(_ & F)|([F|F] & _)]]); try congruence. rewrite Hst in F.
        split; [intros _ X; rewrite F in X; discriminate X|auto].
      + intros D. rewrite <- (HK D), Hst in D. discriminate.
    - keepg s HI; cbn; try discriminate.
      + intros A B. destruct (q10d s HI A B) as (x & C & D & E). exists x.
        assert (x <> t) by (intros ->; destruct D; congruence). rewrite upd_other by assumption. repeat split; try assumption.
        apply pdone_upd; assumption.
      + apply (written_reached s _ t HI Hin Hpd); [intros x Hne; apply upd_other; exact Hne|congruence].
      + intros _ _. exists t. split; [exact Hin|apply upd_same].
  Qed.

  Lemma invq_cmdissue s : InvQ s -> InvQ (set_cmd s true).
  Proof. intros HI. keepq s HI; cbn; try (intros _ H; discriminate). intros _. reflexivity. Qed.

  Lemma invq_cmdbegin s :
    InvQ s -> ph s = PIdle -> cmd s = true -> quiet tasks s = true -> InvQ (set_armed (set_ph s PArm) false).
  Proof.
    intros HI Hp Hc Hq. destruct (quiet_nothing_in_flight s HI Hq) as (A & B & C).
    keepq s HI; cbn; try (intros; discriminate).
    - intros Htree x Hx. destruct (q7 s HI Htree x Hx) as [H|[H|[H|[H|H]]]]; auto.
      destruct H as (H1 & H2). congruence.
    - intros _. repeat split; assumption.
    - intros _. exact Hc.
  Qed.

  Lemma invq_arm s k v0 v t :
    InvQ s -> arm_tr k v0 v -> ph s = PArm -> store s t = v0 -> In t tasks -> InvQ (rearm s t v).
  Proof.
    intros HI Harm Hp Hst Hin.
    assert (Hsv : (store s t = SFailed \/ store s t = SBlocked) /\ rearmed v /\ v <> SFailed /\ done v = false).
    { destruct Harm; unfold rearmed; repeat split; auto; discriminate. }
    clear Harm Hst. destruct Hsv as (Hst & Hrv & Hvf & Hvd).
    assert (Hns : done (store s t) = false /\ exec (store s t) = false /\ store s t <> SRunning) by (destruct Hst as [-> | ->]; repeat split; discriminate).
    destruct Hns as (Hns & Hnx & Hnr).
    destruct (qF s HI t) as (_ & Hpd); [destruct Hst; congruence|].
    assert (Ho : forall x, x <> t -> store (rearm s t v) x = store s x) by (intros x Hne; apply upd_other; exact Hne).
    apply tasks_invq.
    - intros x. destruct (Z.eq_dec x t) as [->|Hne]; [|apply (task_frame s); try reflexivity; [exact (Ho x Hne)|exact (invq_task s x HI)]].
      destruct (invq_task s t HI) as [P Hv HP HN _ HK H1]. unfold Task. cbn. rewrite upd_same. apply (task_ok P Hv).
      + intros N. destruct (HP N) as (_ & _ & _ & _ & _ & I). congruence.
      + intros E T _. split; [|right; right; split; [exact Hrv|congruence]]. intros _ X. exfalso.
        destruct (HN E T Hin) as (_ & [F|[(F & _)|([F|F] & _)]]); [congruence|rewrite F in X; discriminate X|destruct Hst; congruence..].
      + intros _ _ _ _ E. contradiction.
      + intros D. rewrite <- (HK D) in D. congruence.
      + intros A _. rewrite (H1 A Hin) in Hns. discriminate.
    - keepg s HI; cbn; rewrite ?Hp; try discriminate.
      + intros _ _. exists t. rewrite upd_same. repeat split; [exact Hin|exact Hrv|]. apply pdone_upd; assumption.
      + apply (written_reached s _ t HI Hin Hpd Ho). congruence.
      + intros _ H. rewrite (g3 s HI Hp) in H. discriminate.
      + intros _ H. rewrite (g3 s HI Hp) in H. discriminate.
  Qed.

  Lemma invq_cmdpatch s :
    InvQ s -> ph s = PArm -> armed s = true -> InvQ (set_ph (set_cmd (set_ins s IRunning) false) PInit).
  Proof.
    intros HI Hp Ha.
    assert (Hq : ph s <> PIdle) by congruence.
    keepq s HI; cbn; try (intros; discriminate).
    - intros Htree x Hx. destruct (q7 s HI Htree x Hx) as [H|[H|[H|[H|H]]]]; auto.
      right. right. right. right. split; [apply H|discriminate].
    - intros _. apply (q10 s HI Hq).
    - intros _. exact Ha.
    - intros _ _. apply (q10d s HI); [left; exact Hp|exact Ha].
  Qed.

  Lemma invq_restartidle s : InvQ s -> ph s = PDown -> ins s <> IRunning -> InvQ (set_ph s PIdle).
  Proof.
    intros HI Hp Hi.
    keepq s HI; cbn; try (intros; congruence).
    - intros Htree. pose proof (q10b s HI Hp). congruence.
    - intros [H|H]; discriminate.
    - intros Htree. pose proof (q10b s HI Hp). congruence.
  Qed.

  Lemma sts_snap f N x : NoDup N -> sts x (snap f N) = if in_dec Z.eq_dec x N then [f x] else [].
  Proof.
    induction N as [|a N IH]; intros Hn; [reflexivity|]. inversion Hn as [|? ? Ha Hn']; subst. change (snap f (a :: N)) with ((a, f a) :: snap f N). rewrite sts_cons, (IH Hn').
    destruct (Z.eqb_spec a x) as [->|Hne].
    - destruct (in_dec Z.eq_dec x N) as [F|_]; [contradiction|]. destruct (in_dec Z.eq_dec x (x :: N)) as [_|F]; [reflexivity|].
      destruct F. left. reflexivity.
    - destruct (in_dec Z.eq_dec x N) as [F|F], (in_dec Z.eq_dec x (a :: N)) as [G|G]; try reflexivity; exfalso;
        [apply G; right; exact F|destruct G as [G|G]; auto].
  Qed.

  Lemma active_not_exec st : active st = true -> exec st = false -> st = SRunning.
  Proof. destruct st; cbn; congruence. Qed.

  Lemma rebuild_idle s : InvQ s -> ph s = PInit \/ (ph s = PDown /\ ins s = IRunning) ->
    evq s = [] /\ pushq s = [] /\ pend s = [] /\ (forall t, runs s t = RNone).
  Proof.
    intros HI Hph. assert (Hq : ph s <> PIdle) by (destruct Hph as [H|(H & _)]; congruence).
    destruct (q10 s HI Hq) as (Qe & Qd & Qr). destruct (app_eq_nil _ _ Qd) as (Qq & Qp). auto.
  Qed.

  (** nothing is executable at restart only: after a command the task it re-armed is executable and reachable ([q10d]) *)
  Lemma invq_rebuild_none pb s v :
    InvQ s -> ph s = PInit \/ (ph s = PDown /\ ins s = IRunning) -> filter (pushable deps (store s)) tasks = [] ->
    verdict_of tasks deps pb (store s) = v -> InvQ (ctl s (match v with VRunning => ins s | _ => ist_of v end) PIdle (armed s) (cmd s)).
  Proof.
    intros HI Hph EL EV. destruct (rebuild_idle s HI Hph) as (Qe & Qq & Qp & Qr).
    assert (Hnp : forall t, In t tasks -> pushable deps (store s) t = false).
    { intros t Hin. destruct (pushable deps (store s) t) eqn:E; [|reflexivity].
      assert (In t []) as []. rewrite <- EL. apply filter_In. split; assumption. }
    destruct Hph as [Hp|(Hp & Hi)].
    { exfalso. destruct (q10d s HI (or_intror Hp) (q10c s HI Hp)) as (t & A & B & C).
      specialize (Hnp t A). unfold pushable in Hnp. rewrite C in Hnp. destruct B as [B|B]; rewrite B in Hnp; discriminate. }
    pose proof (q10b s HI Hp) as Htree. pose proof (verdict_spec pb (store s)) as HV. rewrite EV in HV.
    keepq s HI; cbn; try congruence.
    - intros [H|H]; discriminate.
    - intros _ _ Hi'. destruct v; try discriminate Hi'. destruct HV as (t & A & B & C). exists t.
      specialize (Hnp t A). unfold pushable in Hnp. rewrite B, andb_true_r in Hnp.
      repeat split; [exact A|apply active_not_exec; assumption|apply Qr].
    - intros Hi'. destruct v; try discriminate Hi'; [congruence|exact HV].
    - intros Hi' _. destruct v; try discriminate Hi'; [congruence|]. destruct HV as (t & A & _ & C). exists t. auto.
    - intros Hi' _. destruct v; try discriminate Hi'; [congruence|]. destruct HV as (t & A & _ & C). exists t. auto.
  Qed.

  Lemma invq_rebuild_push s :
    InvQ s -> ph s = PInit \/ (ph s = PDown /\ ins s = IRunning) -> filter (pushable deps (store s)) tasks <> [] ->
    InvQ (set_ph (set_pushq (set_tree (set_know s (store s)) true) (pushq s ++ snap (store s) (filter (pushable deps (store s)) tasks))) PIdle).
  Proof.
    intros HI Hph HLne. destruct (rebuild_idle s HI Hph) as (Qe & Qq & Qp & Qr).
    set (L := filter (pushable deps (store s)) tasks) in *.
    assert (HL : forall x, In x L <-> In x tasks /\ exec (store s x) && pdone (store s) x = true) by (intros x; apply filter_In).
    apply tasks_invq.
    - intros x. unfold Task, view. cbn. rewrite Qr, Qe, Qq, Qp. cbn. rewrite (sts_snap (store s) L x (NoDup_filter _ Hnd)). change (sts x []) with (@nil est).
      assert (H12 : true = true -> PIdle = PIdle -> In x tasks -> store s x = SRunning -> store s x = SFailed -> ins s = IFailed) by congruence.
      destruct (in_dec Z.eq_dec x L) as [Hx|Hx].
      + apply HL in Hx. destruct Hx as (A & B). apply andb_true_iff in B. destruct B as (B & C).
        refine (task_ok (Pushing (store s x)) eq_refl _ _ H12 (fun _ => eq_refl) (fun A => g1 s HI A x)); [intros _; repeat split; assumption|discriminate].
      + refine (task_ok (Run RNone) eq_refl _ _ H12 (fun _ => eq_refl) (fun A => g1 s HI A x)); [congruence|]. intros _ _ A. split; [|left; reflexivity].
        intros B C _. apply Hx, HL. rewrite B, C. auto.
    - keepg s HI; cbn; try discriminate.
      + intros _. destruct L as [|e ex]; [congruence|]. exists e. destruct (proj1 (HL e) (or_introl eq_refl)) as (A & B).
        apply andb_true_iff in B. destruct B as (B & C). repeat split; try assumption. apply exec_active. exact B.
      + intros [H|H]; discriminate.
  Qed.

  Lemma tok_dec P : {P = Run RNone} + {P <> Run RNone}.
  Proof. destruct P as [| |[]|]; (left; reflexivity) || (right; discriminate). Qed.

  Section Deliver.
    Variables (s : eng) (t0 : Z) (st : est) (r : list (Z * est)).
    Hypothesis HI : InvQ s.
    Hypothesis Heq : evq s = (t0, st) :: r.

    Let k' := upd (know s) t0 st.
    Let s1 := set_know (set_evq s r) k'.

    Lemma deliver_tok : view s t0 = spread (Event st).
    Proof. apply (tok_at s t0 HI). rewrite Heq. left. reflexivity. Qed.

    Lemma deliver_head : (store s t0 = st /\ ev_st st) /\ In t0 tasks /\ tree s = true /\ pdone (know s) t0 = true /\ exec (know s t0) = true /\ ph s = PIdle.
    Proof. apply (task_tok s t0 (Event st) HI deliver_tok). discriminate. Qed.

    Lemma deliver_notdone : done (know s t0) = false.
    Proof. destruct deliver_head as (_ & _ & _ & _ & H & _). destruct (know s t0); cbn in *; congruence. Qed.

    Lemma deliver_taken x : view s1 x = if Z.eq_dec x t0 then spread (Run RNone) else view s x.
    Proof.
      pose proof deliver_tok as Hv. unfold view in *. cbn. rewrite Heq, sts_cons in *. destruct (Z.eq_dec x t0) as [->|Hne].
      - rewrite Z.eqb_refl in Hv. injection Hv as A B C D. rewrite A, B, C, D. reflexivity.
      - destruct (Z.eqb_spec t0 x); [congruence|reflexivity].
    Qed.

    Lemma deliver_inflight x P : x <> t0 -> view s x = spread P -> P <> Run RNone ->
      fit P (store s x) (know s x) /\ In x tasks /\ pdone k' x = true /\ exec (k' x) = true.
    Proof.
      intros Hne Hv N. destruct (task_tok s x P HI Hv N) as (F & A & _ & B & C & _). unfold k'. rewrite upd_other by exact Hne.
      repeat split; try assumption. apply pdone_upd; [exact deliver_notdone|exact B].
    Qed.

    Lemma deliver_K x : done (k' x) = true -> store s x = k' x.
    Proof.
      unfold k'. intros Hx. destruct (Z.eq_dec x t0) as [->|Hne].
      - rewrite upd_same in Hx |- *. apply deliver_head.
      - rewrite upd_other in Hx |- * by exact Hne. apply (qK s HI x Hx).
    Qed.

    Lemma deliver_failed x v : In x tasks -> v = SFailed \/ v = SBlocked -> k' x = v -> store s x = v.
    Proof.
      unfold k'. intros Hin Hv Hx. destruct (Z.eq_dec x t0) as [->|Hne].
      - rewrite upd_same in Hx. rewrite <- Hx. apply deliver_head.
      - rewrite upd_other in Hx by exact Hne. destruct deliver_head as (_ & _ & Htree & _ & _ & Hph).
        destruct (q7 s HI Htree x Hin) as [H|[H|[H|[H|H]]]].
        + congruence.
        + exfalso. destruct (q6 s HI x (or_introl H)) as (_ & _ & C). rewrite Hx in C. destruct Hv; subst v; discriminate.
        + exfalso. destruct (q6 s HI x (or_intror (or_introl H))) as (_ & _ & C). rewrite Hx in C. destruct Hv; subst v; discriminate.
        + destruct H as (H & _). destruct Hv; congruence.
        + destruct H as (_ & H). contradiction.
    Qed.

    Lemma invq_deliver_settle pb v :
      verdict_of tasks deps pb k' = v -> v <> VRunning -> InvQ (set_tree (set_ins s1 (ist_of v)) false).
    Proof.
      intros Hv Hnr. pose proof (verdict_spec pb k') as HV. rewrite Hv in HV. destruct deliver_head as (_ & _ & _ & _ & _ & Hph).
      apply tasks_invq.
      - intros x. apply (task_ok (Run RNone)); [|congruence|discriminate|discriminate|exact (deliver_K x)|].
        + (* a token left would be a reachable active task of the updated tree *)
          change (view (set_tree (set_ins s1 (ist_of v)) false) x) with (view s1 x). rewrite deliver_taken.
          destruct (Z.eq_dec x t0) as [_|Hne]; [reflexivity|].
          destruct (invq_task s x HI) as [P HP _ _ _ _ _]. destruct (tok_dec P) as [->|N]; [exact HP|]. exfalso.
          destruct (deliver_inflight x P Hne HP N) as (_ & A & B & C). apply Hnr. rewrite <- Hv.
          apply (verdict_running pb k' x A B). apply exec_active. exact C.
        + cbn. intros Hi Hx. destruct v; try discriminate Hi. rewrite (deliver_K x (HV x Hx)). exact (HV x Hx).
      - keepg s HI; cbn; try discriminate.
        + intros _. reflexivity.
        + intros _ _ Hi. destruct v; cbn in Hi; congruence.
        + intros Hi _. destruct v; try discriminate Hi. destruct HV as (x & A & B & C). exists x. split; [exact A|]. apply (deliver_failed x SFailed); auto.
        + intros Hi _. destruct v; try discriminate Hi. destruct HV as (x & A & B & C). exists x. split; [exact A|]. apply (deliver_failed x SBlocked); auto.
    Qed.

    Lemma next_nodup : NoDup (next tasks deps s t0 st).
    Proof.
      unfold next. destruct (done st); [apply NoDup_filter, NoDup_filter, Hnd|].
      destruct (est_eqb st SInit); [constructor; [intros []|constructor]|constructor].
    Qed.

    Lemma deliver_next_spec c : In c (next tasks deps s t0 st) ->
      In c tasks /\ pdone k' c = true /\ exec (k' c) = true /\ k' c = store s c /\ view s1 c = spread (Run RNone).
    Proof.
      intros Hc. destruct deliver_head as ((H0st & H0ev) & H0in & Htree & H0pd & H0ex & Hph). rewrite deliver_taken.
      unfold next in Hc. fold k' in Hc. destruct (done st) eqn:Ed.
      - apply filter_In in Hc. destruct Hc as (Hch & Hpu). apply filter_In in Hch. destruct Hch as (Hct & Hdep).
        apply existsb_eqb_in in Hdep. apply andb_true_iff in Hpu. destruct Hpu as (Hex & Hpd).
        destruct (Z.eq_dec c t0) as [->|Hne]; [destruct (not_self_dep t0 Hdep)|].
        unfold k' in Hex |- *. rewrite upd_other in Hex |- * by exact Hne.
        destruct (invq_task s c HI) as [P Hv HP HN _ _ _]. destruct (tok_dec P) as [->|N].
        + destruct (HN eq_refl Htree Hct) as (_ & [F|[(F & _)|(_ & F)]]); [auto| |contradiction]. rewrite F in Hex. discriminate.
        + (* a token would make it reached in the tree as it was, where [t0] is not done *)
          exfalso. destruct (HP N) as (_ & _ & _ & B & _). unfold parents_done in B. rewrite forallb_forall in B.
          specialize (B t0 Hdep). rewrite deliver_notdone in B. discriminate.
      - destruct (est_eqb st SInit) eqn:Ei; [|destruct Hc]. apply est_eqb_eq in Ei. destruct Hc as [<-|[]].
        destruct (Z.eq_dec t0 t0) as [_|F]; [|destruct (F eq_refl)]. unfold k'. rewrite upd_same.
        repeat split; try assumption; [apply pdone_upd; [exact deliver_notdone|exact H0pd]|rewrite Ei; reflexivity|congruence].
    Qed.

    Lemma deliver_pushed x : view (set_pushq s1 (pushq s ++ snap (store s) (next tasks deps s t0 st))) x =
      if in_dec Z.eq_dec x (next tasks deps s t0 st) then spread (Pushing (store s x)) else view s1 x.
    Proof.
      unfold view. cbn. rewrite sts_app, (sts_snap _ _ x next_nodup).
      destruct (in_dec Z.eq_dec x (next tasks deps s t0 st)) as [Hx|Hx]; [|rewrite app_nil_r; reflexivity].
      destruct (deliver_next_spec x Hx) as (_ & _ & _ & _ & Hv). injection Hv as A B C D. cbn in A, B, C, D. rewrite A, B, C, D. reflexivity.
    Qed.

    Lemma invq_deliver_push pb q' :
      (next tasks deps s t0 st = [] -> verdict_of tasks deps pb k' = VRunning) -> q' = pushq s ++ snap (store s) (next tasks deps s t0 st) ->
      InvQ (set_pushq s1 q').
    Proof.
      intros Hv ->. destruct deliver_head as ((H0st & H0ev) & H0in & Htree & H0pd & H0ex & Hph).
      apply tasks_invq.
      - intros x. unfold Task. rewrite deliver_pushed. cbn. destruct (in_dec Z.eq_dec x (next tasks deps s t0 st)) as [Hx|Hx].
        + destruct (deliver_next_spec x Hx) as (A & B & C & D & _).
          apply (task_ok (Pushing (store s x)) eq_refl); [intros _; repeat split; auto|discriminate| |exact (deliver_K x)|exact (fun Hi => g1 s HI Hi x)].
          intros _ _ _ E. rewrite E in C. discriminate.
        + rewrite deliver_taken. destruct (Z.eq_dec x t0) as [->|Hne].
          * unfold k'. rewrite upd_same.
            apply (task_ok (Run RNone) eq_refl); [congruence| | |intros _; exact H0st|intros Hi _; exact (g1 s HI Hi t0 H0in)].
            -- (* t0 itself: executable again only as init, and then it is pushed *)
               intros _ _ _. split; [|left; congruence]. intros _ X. exfalso. apply Hx. unfold next.
               destruct H0ev as [-> |[-> |[-> |[-> | ->]]]]; try discriminate X. left. reflexivity.
            -- intros _ _ _ E. rewrite E in H0ev. destruct H0ev as [F|[F|[F|[F|F]]]]; discriminate.
          * destruct (invq_task s x HI) as [P HvP HP HN H12 HK H1]. unfold k'. rewrite upd_other by exact Hne.
            refine (task_ok P HvP _ _ H12 HK H1).
            -- intros N. destruct (HP N) as (F & A & T & K & X & I). repeat split; try assumption. apply pdone_upd; [exact deliver_notdone|exact K].
            -- intros -> T A. destruct (HN eq_refl T A) as (B & C). split; [|exact C]. intros K X E.
               destruct (pdone_upd_inv _ _ _ _ K) as [K'|(Hdep & Hdone)]; [exact (B K' X E)|].
               (* a child of [t0] that has become executable: it is pushed *)
               apply Hx. unfold next. rewrite Hdone. apply filter_In. split.
               ++ apply filter_In. split; [exact A|]. apply existsb_exists. exists t0. split; [exact Hdep|apply Z.eqb_refl].
               ++ unfold pushable. rewrite upd_other by exact Hne. rewrite X. exact K.
      - keepg s HI. cbn. intros _.
        destruct (next tasks deps s t0 st) as [|n0 N'] eqn:EN; [pose proof (verdict_spec pb k') as HV; rewrite (Hv eq_refl) in HV; exact HV|].
        assert (Hn : In n0 (next tasks deps s t0 st)) by (rewrite EN; left; reflexivity).
        destruct (deliver_next_spec n0 Hn) as (A & B & C & _). exists n0. repeat split; [exact A|exact B|apply exec_active; exact C].
    Qed.
  End Deliver.

  Lemma invq_guard_ok s t sn : InvQ s -> In (t, sn) (pend s) -> guard_ok validate s t sn = true.
  Proof.
    intros HI Hin. assert (Hin' : In (t, sn) (dl s)) by (unfold dl; apply in_or_app; right; exact Hin).
    destruct (q1 s HI t sn Hin') as (A & B & C & _). unfold guard_ok. rewrite C, B. cbn.
    subst sn. destruct validate; cbn; [|reflexivity]. apply est_eqb_eq. reflexivity.
  Qed.

  Lemma invq_step s l s' : InvQ s -> stepq s l = Some s' -> InvQ s'.
  Proof.
    intros HI HS.
    destruct (step_Step _ _ _ _ _ _ _ _ HS) as [l i p a c Hc | k t w r' Htr | t sn p' Hr _ | t sn p' Hr Hg | t ev Hr | t sn q' Hr
      | k v g t sn q' Hpv Hr Hg _ | k v v' t Harm Hp Hst Hin | pb Hg Hne | t Hst Hr | | pb t st r Heq Hl | pb t st r q' Heq _ _ Hv Hq
      | pb t st r v Heq _ _ _ Hv Hnr]; clear HS.
    - destruct Hc as [Hc Hq | Hp Hc Hq | Hp Ha | Hp Ha Hn | Hp Hi | pb v Hg Hf Hv].
      + exact (invq_cmdissue s HI).
      + exact (invq_cmdbegin s HI Hp Hc Hq).
      + exact (invq_cmdpatch s HI Hp Ha).
      + (* a command that re-armed nothing: [nonoop] is on *)
        discriminate Hn.
      + exact (invq_restartidle s HI Hp Hi).
      + exact (invq_rebuild_none pb s v HI Hg Hf Hv).
    - exact (invq_moves s _ t _ _ HI (moved_moves s k t w r' HI Htr)).
    - exact (invq_moves s _ t _ _ HI (accept_moves s t sn p' HI Hr)).
    - (* under the invariant every delivery under way is valid, none is refused *)
      rewrite (invq_guard_ok s t sn HI (remove1_mem _ _ _ Hr)) in Hg. discriminate.
    - exact (invq_moves s _ t _ _ HI (finish_moves s t ev HI Hr)).
    - exact (invq_moves s _ t _ _ HI (pushrun_moves s t sn q' HI Hr)).
    - exact (invq_moves s _ t _ _ HI (verdict_moves s t sn v q' HI Hr (proj1 (pv_tr_spec _ _ _ sn Hpv Hg)))).
    - exact (invq_arm s k v v' t HI Harm Hp Hst Hin).
    - exact (invq_rebuild_push s HI Hg Hne).
    - exact (invq_wdfail s t HI Hst Hr).
    - exact (invq_crash s HI).
    - (* a queued event finds the tree, its node reached *)
      destruct (deliver_head s t st r HI Heq) as (_ & _ & Htree & Hpd & _). rewrite Htree, Hpd in Hl. discriminate.
    - exact (invq_deliver_push s t st r HI Heq pb q' Hv Hq).
    - exact (invq_deliver_settle s t st r HI Heq pb v Hv Hnr).
  Qed.

  Theorem invq_reach ls : forall s s', InvQ s -> run tasks deps validate true true s ls = Some s' -> InvQ s'.
  Proof. exact (run_inv stepq InvQ invq_step ls). Qed.

  Corollary invq_history ls s : run tasks deps validate true true boot ls = Some s -> InvQ s.
  Proof. exact (invq_reach ls boot s invq_boot). Qed.

  (** the owning worker has nothing in flight for the instance, no command is stored or being executed, and
      no task is recorded running (a task recorded running with no run is what the watchdog's timeout settles) *)
  Definition Quiescent (s : eng) : Prop :=
    quiet tasks s = true /\ ph s = PIdle /\ cmd s = false /\ (forall t, In t tasks -> store s t <> SRunning).

  (** C03 / C04: at every quiescent point the instance is settled and the verdict agrees with the tasks *)
  Theorem settled s :
    InvQ s -> Quiescent s ->
    ins s <> IRunning /\
    (ins s = ISuccess <-> forall t, In t tasks -> done (store s t) = true) /\
    (ins s = IFailed -> exists t, In t tasks /\ store s t = SFailed) /\
    (ins s = IBlocked -> exists t, In t tasks /\ store s t = SBlocked).
  Proof.
    intros HI (Hq & Hp & Hc & Hnr). destruct (quiet_nothing_in_flight s HI Hq) as (Qe & Qp & Qr).
    assert (Hset : ins s <> IRunning).
    { intros Hi. destruct (tree s) eqn:Et; [|destruct (q11 s HI Et Hp Hi) as (t & A & B & _); exact (Hnr t A B)].
      (* the tree shows a reachable active task; it holds no token, so it is recorded as the tree has it *)
      destruct (q9 s HI Et) as (t & A & B & C). destruct (invq_task s t HI) as [P Hv _ HN H12 _ _].
      assert (P = Run RNone) as ->.
      { apply spread_inj. rewrite <- Hv. unfold view. rewrite (Qr t), Qe. destruct (app_eq_nil _ _ Qp) as (-> & ->). reflexivity. }
      destruct (HN eq_refl Et A) as (N & [E|[(E1 & E2)|(_ & E)]]).
      - destruct (exec (know s t)) eqn:X; [exact (N B eq_refl E)|]. apply (Hnr t A). rewrite <- E. apply active_not_exec; assumption.
      - pose proof (H12 Et Hp A E1 E2). congruence.
      - exact (E Hp). }
    split; [exact Hset|]. split; [|split].
    - split; [apply (g1 s HI)|]. intros Hall. destruct (ins s) eqn:Ei; [congruence|reflexivity| |].
      + destruct (g2 s HI Ei Hc) as (t & A & B). specialize (Hall t A). rewrite B in Hall. discriminate.
      + destruct (g2b s HI Ei Hc) as (t & A & B). specialize (Hall t A). rewrite B in Hall. discriminate.
    - intros Hi. apply (g2 s HI Hi Hc).
    - intros Hi. apply (g2b s HI Hi Hc).
  Qed.

  (** C13 at engine level, for the histories of the settle theorem: of a task recorded skipped or blocked no run is
      registered and no delivery is under way or with a pusher *)
  Theorem verdict_task_has_no_run s t :
    InvQ s -> store s t = SSkipped \/ store s t = SBlocked -> runs s t = RNone /\ ~ inpend s t.
  Proof.
    (* the status of a task with a run that can still write, or with a delivery under way, is active *)
    intros HI Hst. assert (Hna : active (store s t) = false) by (destruct Hst as [-> | ->]; reflexivity). split.
    - destruct (q5_fits s t HI) as (F & _).
      assert (Hnw : ~ writing (runs s t)) by (intros W; rewrite (writing_active _ _ W F) in Hna; discriminate).
      destruct (runs s t) as [| | | | |ev]; [reflexivity|destruct (Hnw I)..|]. destruct F as (<- & [E|[E|E]]); destruct Hst; congruence.
    - intros (sn & Hin). destruct (q1 s HI t sn Hin) as (-> & B & _). rewrite (exec_active _ B) in Hna. discriminate.
  Qed.

  (** steps driven by the environment: the operator's command and its execution by the command watcher, the
      watchdog, the worker's death.  Everything else is a step of the engine itself. *)
  Definition operator (l : label) : bool :=
    match l with CmdIssue | CmdBegin | Rearm _ | ContArm _ | CmdPatch | WdFail _ | Crash => true | _ => false end.

  Lemma remove1_head (p : Z * est) l : exists l', remove1 p (p :: l) = Some l'.
  Proof. cbn. rewrite Z.eqb_refl. assert (est_eqb (snd p) (snd p) = true) as -> by (apply est_eqb_eq; reflexivity). cbn. eexists. reflexivity. Qed.

  (** the engine never hangs with work in flight: in every state of the restricted system that is not quiet - or in
      which a re-initialisation is due - a step of the engine itself is enabled (no help from the operator, the
      watchdog or a crash is needed).  Together with [settled]: the engine can only stop in settled states. *)
  Theorem engine_not_stuck s :
    InvQ s -> quiet tasks s = false \/ ph s = PInit \/ ph s = PDown ->
    exists l s', operator l = false /\ stepq s l = Some s'.
  Proof.
    intros HI H.
    destruct (evq s) as [|(t0, st) r] eqn:Eq.
    2:{ exists (Deliver false). cbn. rewrite Eq.
        destruct (tree s && parents_done deps (know s) t0); [|eexists; split; reflexivity].
        match goal with |- context [match ?nx with _ => _ end] => destruct nx end;
          [destruct (verdict_of tasks deps false (upd (know s) t0 st))|]; eexists; split; reflexivity. }
    destruct (pushq s) as [|(t1, sn1) q] eqn:Ep.
    2:{ exists (PushRun t1 sn1). cbn. rewrite Ep. destruct (remove1_head (t1, sn1) q) as (l' & ->). eexists. split; reflexivity. }
    destruct (pend s) as [|(t2, sn2) p] eqn:Epd.
    2:{ exists (Accept t2 sn2). cbn. rewrite Epd. destruct (remove1_head (t2, sn2) p) as (l' & El). rewrite El.
        assert (Hin : In (t2, sn2) (pend s)) by (rewrite Epd; left; reflexivity).
        rewrite (invq_guard_ok s t2 sn2 HI Hin). eexists. split; reflexivity. }
    destruct H as [H|[H|H]].
    - (* a registered run *)
      unfold quiet in H. rewrite Eq, Epd, Ep in H.
      destruct (some_registered (runs s) tasks H) as (t & Hin & Hr). pose proof (q5 s HI t) as H5.
      destruct (runs s t) as [|sn| | | |ev] eqn:Er; [congruence| | | | |].
      + exists (StartWrite t). cbn. rewrite Er. destruct H5 as (_ & Hex & _).
        destruct sn; cbn in Hex; try discriminate; eexists; split; reflexivity.
      + exists (MainStart t). cbn. rewrite Er. eexists. split; reflexivity.
      + exists (MainOk t). cbn. rewrite Er. eexists. split; reflexivity.
      + exists (AfterOk t). cbn. rewrite Er. eexists. split; reflexivity.
      + exists (Finish t). cbn. rewrite Er. eexists. split; reflexivity.
    - exists (Rebuild false). cbn. rewrite H. eexists. split; reflexivity.
    - destruct (ins s) eqn:Ei; [exists (Rebuild false)|exists RestartIdle..]; cbn; rewrite H, Ei; eexists; split; reflexivity.
  Qed.
End Settle.
