From Coq Require Import List ZArith Bool Arith.
From FF Require Import Sx StoreModel StoreCheck Commander.
Import ListNotations.
Local Open Scope Z_scope.

(** [admission] is four look-ups that name the instance the ids belong to ([Target]), then a decision
    that reads only that instance ([decide]). *)
Inductive Target (s : store) (ids : list Z) (i : irec) : Prop :=
  target_intro t0 ft :
    ids <> [] -> found_tasks s ids = t0 :: ft -> length ids = length (t0 :: ft) ->
    (forall t, In t (t0 :: ft) -> t_ins t = t_ins t0) ->
    find (fun i => Z.eqb (i_id i) (t_ins t0)) (insts s) = Some i -> Target s ids i.

Definition decide (kind : Z) (ids alive : list Z) (i : irec) : cres :=
  let worker_alive := zin (i_worker i) alive in
  if Z.eqb kind 2 then
    if negb worker_alive then CRej EDeadWorker
    else if negb (Z.eqb (i_status i) 3) then CRej ENotRunning
    else match i_cmd i with Some _ => CRej EPending | None => CAcc [i_worker i] (kind, ids) end
  else
    if negb worker_alive && match alive with [] => true | _ => false end then CRej ENoAlive
    else match i_cmd i with
         | Some _ => CRej EPending
         | None => CAcc (if worker_alive then [i_worker i] else alive) (kind, ids)
         end.

Lemma same_ins_forallb : forall (t0 : trec) l,
  forallb (fun t => Z.eqb (t_ins t) (t_ins t0)) l = true <-> forall t, In t l -> t_ins t = t_ins t0.
Proof. intros t0 l. rewrite forallb_forall. split; intros H t Ht; apply Z.eqb_eq, H, Ht. Qed.

Lemma admission_target : forall s kind ids alive i,
  Target s ids i -> admission s kind ids alive = decide kind ids alive i.
Proof.
  intros s kind ids alive i [t0 ft Hne Hf Hl Hsame Hi]. unfold admission.
  destruct ids as [|x r]; [congruence|].
  apply same_ins_forallb in Hsame. rewrite Hf, Hl, Nat.eqb_refl, Hsame, Hi. reflexivity.
Qed.

Lemma admission_cases : forall s kind ids alive,
  (exists i, Target s ids i) \/ exists e, admission s kind ids alive = CRej e.
Proof.
  intros s kind ids alive. unfold admission. destruct ids as [|x r]; [right; eexists; reflexivity|]. set (ids := x :: r).
  destruct (Nat.eqb_spec (length ids) (length (found_tasks s ids))) as [Hl|]; [|right; eexists; reflexivity].
  destruct (found_tasks s ids) as [|t0 ft] eqn:Hf; [right; eexists; reflexivity|].
  destruct (forallb _ (t0 :: ft)) eqn:Hsame; [|right; eexists; reflexivity]. rewrite same_ins_forallb in Hsame.
  destruct (find _ (insts s)) as [i|] eqn:Hi; [|right; eexists; reflexivity].
  left. exists i. refine (target_intro s ids i t0 ft _ Hf Hl Hsame Hi). discriminate.
Qed.

Lemma decide_accepted : forall kind ids alive i ws cmd,
  decide kind ids alive i = CAcc ws cmd ->
  cmd = (kind, ids) /\ i_cmd i = None /\
  (kind = 2 -> i_status i = 3 /\ zin (i_worker i) alive = true /\ ws = [i_worker i]) /\
  (kind <> 2 -> (zin (i_worker i) alive = true /\ ws = [i_worker i]) \/
                (zin (i_worker i) alive = false /\ ws = alive /\ alive <> [])).
Proof.
  intros kind ids alive i ws cmd H. unfold decide in H.
  destruct (Z.eqb_spec kind 2) as [Hk|Hk], (zin (i_worker i) alive); simpl in H.
  - destruct (Z.eqb_spec (i_status i) 3) as [Hs|Hs]; simpl in H; [|discriminate].
    destruct (i_cmd i); [discriminate|]. injection H as <- <-.
    split; [reflexivity|]. split; [reflexivity|]. split; [intros _; auto|intros X; contradiction].
  - discriminate.
  - destruct (i_cmd i); [discriminate|]. injection H as <- <-.
    split; [reflexivity|]. split; [reflexivity|]. split; [intros X; contradiction|intros _; left; auto].
  - destruct alive; [discriminate|]. destruct (i_cmd i); [discriminate|]. injection H as <- <-.
    split; [reflexivity|]. split; [reflexivity|]. split; [intros X; contradiction|].
    intros _. right. split; [reflexivity|]. split; [reflexivity|discriminate].
Qed.

Example admit_example :
  admission (mkS [mkI 9 1 5 0 None None 0 (L [])] [mkT 1 9 1 [] 30 5 0 [] 0 (L []); mkT 2 9 2 [] 30 4 0 [] 0 (L [])]) 1 [1] [1; 2]
  = CAcc [1] (1, [1]).
Proof. reflexivity. Qed.
