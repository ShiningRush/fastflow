(** C05: however the rounds of record creation are cut short, the records stay distinct tasks of the DAG, and a
    round that is not cut completes them. *)
From Coq Require Import List ZArith Bool Arith Lia Permutation.
From FF Require Import Sx Lts StoreModel StoreFacts Instantiate.
Import ListNotations.
Local Open Scope Z_scope.

Definition gidsD (dag : list dtask) : list Z := map d_gid dag.

Definition Inv (dag : list dtask) (have : list Z) : Prop := NoDup have /\ incl have (gidsD dag).

Lemma zin_In x l : zin x l = true <-> In x l.
Proof.
  unfold zin. rewrite existsb_exists. split.
  - intros [y [Hy E]]. apply Z.eqb_eq in E. subst. exact Hy.
  - intros H. exists x. split; [exact H|apply Z.eqb_refl].
Qed.

Lemma missing_spec dag have d : In d (missing dag have) <-> In d dag /\ ~ In (d_gid d) have.
Proof.
  unfold missing. rewrite filter_In. split; intros [H1 H2]; split; auto.
  - intros Hin. apply zin_In in Hin. rewrite Hin in H2. discriminate.
  - destruct (zin (d_gid d) have) eqn:E; [apply zin_In in E; contradiction|reflexivity].
Qed.

Lemma NoDup_map_filter (dag : list dtask) f : NoDup (gidsD dag) -> NoDup (map d_gid (filter f dag)).
Proof.
  unfold gidsD. induction dag as [|d r IH]; simpl; intros H; [constructor|].
  inversion H as [|? ? Hn Hr]; subst. destruct (f d); simpl; [|apply IH; exact Hr].
  constructor; [|apply IH; exact Hr]. intros Hin. apply Hn.
  apply in_map_iff in Hin as [x [E Hx]]. apply filter_In in Hx as [Hx _]. rewrite <- E. apply in_map. exact Hx.
Qed.

Lemma NoDup_firstn {A} (l : list A) k : NoDup l -> NoDup (firstn k l).
Proof.
  revert k; induction l as [|x r IH]; intros [|k] H; simpl; try constructor.
  - inversion H as [|? ? Hn Hr]; subst. intros Hin. apply Hn. eapply In_firstn. exact Hin.
  - inversion H; subst. apply IH. assumption.
Qed.

Lemma NoDup_app_intro {A} (a b : list A) :
  NoDup a -> NoDup b -> (forall x, In x a -> In x b -> False) -> NoDup (a ++ b).
Proof.
  induction a as [|x a IH]; intros Ha Hb Hd; simpl; [exact Hb|].
  inversion Ha as [|? ? Hn Ha']; subst. constructor.
  - intros Hin. apply in_app_or in Hin as [Hin|Hin]; [contradiction|]. apply (Hd x); [left; reflexivity|exact Hin].
  - apply IH; [exact Ha'|exact Hb|]. intros y Hy Hy'. apply (Hd y); [right; exact Hy|exact Hy'].
Qed.

Lemma round_inv dag have cut : NoDup (gidsD dag) -> Inv dag have -> Inv dag (round dag have cut).
Proof.
  intros ND [Hn Hi]. unfold round. destruct (Nat.eqb (length dag) (length have)); [split; assumption|].
  set (new := match cut with Some k => firstn k (missing dag have) | None => missing dag have end).
  assert (Hsub : forall d, In d new -> In d (missing dag have)).
  { intros d Hd. unfold new in Hd. destruct cut; [eapply In_firstn; exact Hd|exact Hd]. }
  assert (Hnd : NoDup (map d_gid new)).
  { unfold new. destruct cut as [k|].
    - rewrite <- firstn_map. apply NoDup_firstn. apply NoDup_map_filter. exact ND.
    - apply NoDup_map_filter. exact ND. }
  split.
  - apply NoDup_app_intro; [exact Hn|exact Hnd|].
    intros x Hx Hx'. apply in_map_iff in Hx' as [d [E Hd]]. apply Hsub in Hd. apply missing_spec in Hd as [_ Hd].
    subst x. contradiction.
  - intros x Hx. apply in_app_or in Hx as [Hx|Hx]; [apply Hi; exact Hx|].
    apply in_map_iff in Hx as [d [E Hd]]. apply Hsub in Hd. apply missing_spec in Hd as [Hd _].
    subst x. apply in_map. exact Hd.
Qed.

Lemma rounds_inv dag cuts : forall have, NoDup (gidsD dag) -> Inv dag have -> Inv dag (rounds dag have cuts).
Proof.
  intros have ND. apply fold_left_inv. intros h k _. apply round_inv, ND.
Qed.

Theorem full_round_complete dag have :
  NoDup (gidsD dag) -> Inv dag have ->
  let h := round dag have None in
  NoDup h /\ (forall g, In g h <-> In g (gidsD dag)).
Proof.
  intros ND [Hn Hi]. cbv zeta. pose proof (round_inv dag have None ND (conj Hn Hi)) as [Hn' Hi'].
  split; [exact Hn'|]. intros g. split; [apply Hi'|]. intros Hg. unfold round.
  destruct (Nat.eqb (length dag) (length have)) eqn:E.
  - (* same number of distinct ids inside the DAG's ids: same set *)
    apply Nat.eqb_eq in E.
    assert (Hlen : (length (gidsD dag) <= length have)%nat) by (unfold gidsD; rewrite map_length; lia).
    apply (NoDup_length_incl Hn Hlen Hi). exact Hg.
  - destruct (in_dec Z.eq_dec g have) as [Hh|Hh]; [apply in_or_app; left; exact Hh|].
    apply in_or_app. right. apply in_map_iff in Hg as [d [Eg Hd]]. subst g.
    apply in_map. apply missing_spec. split; assumption.
Qed.

Example instantiate_example :
  round [mkD 1 [] 0; mkD 2 [1] 5; mkD 3 [1; 2] 0] (round [mkD 1 [] 0; mkD 2 [1] 5; mkD 3 [1; 2] 0] [] (Some 1%nat)) None = [1; 2; 3].
Proof. reflexivity. Qed.
