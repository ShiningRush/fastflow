From Coq Require Import List ZArith Bool Arith.
From FF Require Import Sx StoreModel PreCheck.
Import ListNotations.
Local Open Scope Z_scope.

Theorem absent_key_not_met vars share c :
  kv_lookup (if Z.eqb (c_src c) 1 then vars else share) (c_key c) = None -> cond_met vars share c = false.
Proof. intros H. unfold cond_met. rewrite H. reflexivity. Qed.

Lemma pre_outcomes_spec st checks vars share o :
  In o (pre_outcomes st checks vars share) <->
  last_state st = false /\ exists k, fire k = o /\ In k checks /\ can_fire st vars share k = true.
Proof.
  unfold pre_outcomes. destruct (last_state st).
  - split; [intros []|intros [H _]; discriminate H].
  - rewrite in_map_iff. setoid_rewrite filter_In. intuition.
Qed.

Example precheck_example :
  pre_outcomes 1 [mkChk 2 [mkCond 1 7 [3] 1]; mkChk 1 [mkCond 2 5 [] 2]] [(7, 3)] [(5, 9)] = [8; 10]
  /\ pre_outcomes 9 [mkChk 2 [mkCond 1 7 [3] 1]; mkChk 1 [mkCond 2 5 [] 2]] [(7, 3)] [(5, 9)] = [10].
Proof. split; reflexivity. Qed.
