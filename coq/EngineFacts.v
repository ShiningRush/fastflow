(** Facts about Engine.  What a step does, by the shape of its effect: the 24 labels (some 35
    guarded cases of [step]) have 14 shapes; the eight labels of a registered run are one of them, read off a
    table of the run's program counter ([run_tr]), the labels that touch only the control fields another
    ([ctl_tr]); every fact about all steps starts from [step_Step].  Safety under [validate] alone
    (commands may be issued while the instance is busy, no-op commands allowed): for every history in which
    each accepted delivery carries the task's current persisted status, the invariant and, from it, dependency
    order (C01), at most one main-action start per attempt also across crashes (C02, C04), finality of success
    (C15).  For the code as it is ([validate = false]): witnesses that violate each of them (the stale second
    delivery after a retry command re-initialised the instance). *)
From Coq Require Import List ZArith Bool Lia.
From FF Require Import Lts Engine.
Import ListNotations.
Local Open Scope Z_scope.

Ltac inv H := inversion H; subst; clear H.

Lemma upd_same {A} (f : Z -> A) k v : upd f k v k = v.
Proof. unfold upd. rewrite Z.eqb_refl. reflexivity. Qed.
Lemma upd_other {A} (f : Z -> A) k v x : x <> k -> upd f k v x = f x.
Proof. unfold upd. intros H. destruct (Z.eqb_spec x k); [contradiction|reflexivity]. Qed.
Lemma upd_cases {A} (f : Z -> A) t v x : (x = t /\ upd f t v x = v) \/ (x <> t /\ upd f t v x = f x).
Proof. destruct (Z.eq_dec x t) as [->|Hne]; [left; split; [reflexivity|apply upd_same]|right; split; [exact Hne|apply upd_other; exact Hne]]. Qed.

Lemma remove1_split p l l' : remove1 p l = Some l' -> exists a b, l = a ++ p :: b /\ l' = a ++ b.
Proof.
  revert l'. induction l as [|y r IH]; cbn; intros l' H; [discriminate|].
  destruct (Z.eqb (fst y) (fst p) && est_eqb (snd y) (snd p)) eqn:E.
  - inv H. apply andb_true_iff in E. destruct E as (E1 & E2). apply Z.eqb_eq in E1. apply est_eqb_eq in E2.
    exists [], l'. destruct y, p; cbn in *; subst. split; reflexivity.
  - destruct (remove1 p r) as [r'|]; [|discriminate]. inv H. destruct (IH r' eq_refl) as (a & b & -> & ->).
    exists (y :: a), b. split; reflexivity.
Qed.

Lemma remove1_incl p l l' : remove1 p l = Some l' -> incl l' l.
Proof. intros H. destruct (remove1_split _ _ _ H) as (a & b & -> & ->). apply incl_app_app; [apply incl_refl|apply incl_tl, incl_refl]. Qed.

Lemma remove1_mem p l l' : remove1 p l = Some l' -> In p l.
Proof. intros H. destruct (remove1_split _ _ _ H) as (a & b & -> & _). apply in_elt. Qed.

Definition writing (r : rpc) : Prop := match r with RNone | RDone _ => False | _ => True end.

(** statuses of a task whose main action has not started in the current attempt *)
Definition unstarted_st (st : est) : bool := match st with SInit | SRetrying | SContinue | SBlocked => true | _ => false end.

(** the persisted status [st] is the one the registration [r] stands for *)
Definition fits (r : rpc) (st : est) : Prop :=
  match r with
  | RNone => True
  | RQueued sn => st = sn /\ exec sn = true
  | RRunning | RInMain => st = SRunning
  | REnding => st = SEnding
  | RDone ev => st = ev /\ (ev = SInit \/ ev = SSuccess \/ ev = SFailed)
  end.

(** the program counter of one run: under the label [k t] a run of [t] registered as [r] stores [w] (if
    anything) and goes on as [r'] *)
Inductive run_tr : (Z -> label) -> rpc -> option est -> rpc -> Prop :=
| R_start sn : sn = SInit \/ sn = SContinue -> run_tr StartWrite (RQueued sn) (Some SRunning) RRunning
| R_retried : run_tr StartWrite (RQueued SRetrying) (Some SInit) (RDone SInit)
| R_resume : run_tr StartWrite (RQueued SEnding) None REnding
| R_main : run_tr MainStart RRunning None RInMain
| R_main_ok : run_tr MainOk RInMain (Some SEnding) REnding
| R_main_err : run_tr MainErr RInMain (Some SFailed) (RDone SFailed)
| R_after_ok : run_tr AfterOk REnding (Some SSuccess) (RDone SSuccess)
| R_after_err : run_tr AfterErr REnding (Some SFailed) (RDone SFailed)
| R_before_err sn : sn = SInit \/ sn = SContinue -> run_tr BeforeErr (RQueued sn) (Some SFailed) (RDone SFailed)
| R_retry_err : run_tr RetryErr (RQueued SRetrying) (Some SFailed) (RDone SFailed).

Definition wr (st : est) (w : option est) : est := match w with Some v => v | None => st end.

Lemma run_tr_spec k r w r' : run_tr k r w r' ->
  writing r /\ r' <> RNone /\ (forall st, fits r st -> fits r' (wr st w)) /\ (r' = RInMain -> k = MainStart).
Proof.
  destruct 1; cbn; (split; [exact I|]); (split; [discriminate|]); (split; [|discriminate || reflexivity]);
    intros st F; auto; apply F.
Qed.

(** [moved], the effect of a run's move: where nothing is written or started it is still convertible with the
    state [step] returns ([set_runs s _]): a setter rebuilds the record from the projections of its argument, so
    setting a field to what it was is no change up to conversion; the same holds for [rearm] and [ctl] below. *)
Definition wstore (s : eng) (t : Z) (w : option est) : Z -> est := match w with Some v => upd (store s) t v | None => store s end.

Lemma wstore_eq s t w x : wstore s t w x = upd (store s) t (wr (store s t) w) x.
Proof. destruct w; cbn; [reflexivity|]. unfold upd. destruct (Z.eqb_spec x t); [subst|]; reflexivity. Qed.

Global Arguments wstore : simpl never.

Definition moved (s : eng) (t : Z) (w : option est) (r' : rpc) : eng :=
  set_started (set_runs (set_store s (wstore s t w)) (upd (runs s) t r'))
    (match r' with RInMain => upd (started s) t true | _ => started s end).

(** the effect of a command on its target; a retry opens a new attempt *)
Definition rearm (s : eng) (t : Z) (v : est) : eng :=
  set_armed (set_started (set_store s (upd (store s) t v))
                         (match v with SRetrying => upd (started s) t false | _ => started s end)) true.

Inductive arm_tr : (Z -> label) -> est -> est -> Prop :=
| A_retry : arm_tr Rearm SFailed SRetrying
| A_continue : arm_tr ContArm SBlocked SContinue.

(** a push whose pre-check fires: label, verdict, which snapshots can get it *)
Inductive pv_tr : (Z -> est -> label) -> est -> (est -> bool) -> Prop :=
| P_skip : pv_tr PushSkip SSkipped can_skip
| P_block : pv_tr PushBlock SBlocked can_block.

Lemma pv_tr_spec k v g sn : pv_tr k v g -> g sn = true -> (v = SSkipped \/ v = SBlocked) /\ can_skip sn = true.
Proof. destruct 1; intros H; (split; [auto|]); destruct sn; cbn in H |- *; congruence. Qed.

Definition ctl (s : eng) (i : ist) (p : phase) (a c : bool) : eng := set_cmd (set_armed (set_ph (set_ins s i) p) a) c.

Section Step.
  Variable tasks : list Z.
  Variable deps : Z -> list Z.
  Variable validate cmdquiet nonoop : bool.

  Notation pdone := (parents_done deps).

  Inductive ctl_tr (s : eng) : label -> ist -> phase -> bool -> bool -> Prop :=
  | C_issue : cmd s = false -> negb cmdquiet || quiet tasks s = true -> ctl_tr s CmdIssue (ins s) (ph s) (armed s) true
  | C_begin : ph s = PIdle -> cmd s = true -> negb cmdquiet || quiet tasks s = true -> ctl_tr s CmdBegin (ins s) PArm false (cmd s)
  | C_patch : ph s = PArm -> armed s = true -> ctl_tr s CmdPatch IRunning PInit (armed s) false
  | C_patch_noop : ph s = PArm -> armed s = false -> nonoop = false -> ctl_tr s CmdPatch IRunning PIdle (armed s) false
  | C_restart : ph s = PDown -> ins s <> IRunning -> ctl_tr s RestartIdle (ins s) PIdle (armed s) (cmd s)
  | C_rebuild pb v : ph s = PInit \/ (ph s = PDown /\ ins s = IRunning) -> filter (pushable deps (store s)) tasks = [] ->
      verdict_of tasks deps pb (store s) = v ->
      ctl_tr s (Rebuild pb) (match v with VRunning => ins s | _ => ist_of v end) PIdle (armed s) (cmd s).

  (** what the handling of the completion event [(t, st)] pushes *)
  Definition next (s : eng) (t : Z) (st : est) : list Z :=
    if done st then filter (pushable deps (upd (know s) t st)) (children tasks deps t) else if est_eqb st SInit then [t] else [].

  Inductive Step (s : eng) : label -> eng -> Prop :=
  | S_ctl l i p a c : ctl_tr s l i p a c -> Step s l (ctl s i p a c)
  | S_run k t w r' : run_tr k (runs s t) w r' -> Step s (k t) (moved s t w r')
  | S_accept t sn p' : remove1 (t, sn) (pend s) = Some p' -> guard_ok validate s t sn = true ->
      Step s (Accept t sn) (set_pend (set_runs s (upd (runs s) t (RQueued sn))) p')
  | S_drop t sn p' : remove1 (t, sn) (pend s) = Some p' -> guard_ok validate s t sn = false -> Step s (Drop t sn) (set_pend s p')
  | S_finish t ev : runs s t = RDone ev -> Step s (Finish t) (set_evq (set_runs s (upd (runs s) t RNone)) (evq s ++ [(t, ev)]))
  | S_pushrun t sn q' : remove1 (t, sn) (pushq s) = Some q' -> Step s (PushRun t sn) (set_pend (set_pushq s q') (pend s ++ [(t, sn)]))
  | S_verdict k v g t sn q' : pv_tr k v g -> remove1 (t, sn) (pushq s) = Some q' -> g sn = true -> push_ok validate s t sn = true ->
      Step s (k t sn) (push_verdict s t v q')
  | S_arm k v v' t : arm_tr k v v' -> ph s = PArm -> store s t = v -> In t tasks -> Step s (k t) (rearm s t v')
  | S_rebuild pb : ph s = PInit \/ (ph s = PDown /\ ins s = IRunning) -> filter (pushable deps (store s)) tasks <> [] ->
      Step s (Rebuild pb)
        (set_ph (set_pushq (set_tree (set_know s (store s)) true) (pushq s ++ snap (store s) (filter (pushable deps (store s)) tasks))) PIdle)
  | S_wdfail t : store s t = SRunning -> runs s t = RNone -> Step s (WdFail t) (set_ins (set_store s (upd (store s) t SFailed)) IFailed)
  | S_crash :
      Step s Crash (set_armed (set_ph (set_tree (set_pushq (set_pend (set_evq (set_runs s (fun _ => RNone)) []) []) []) false) PDown) false)
  | S_lost pb t st r : evq s = (t, st) :: r -> tree s && pdone (know s) t = false -> Step s (Deliver pb) (set_evq s r)
  (* with nothing to push the tree must still show an active task *)
  | S_deliver pb t st r q' : evq s = (t, st) :: r -> tree s = true -> pdone (know s) t = true ->
      (next s t st = [] -> verdict_of tasks deps pb (upd (know s) t st) = VRunning) -> q' = pushq s ++ snap (store s) (next s t st) ->
      Step s (Deliver pb) (set_pushq (set_know (set_evq s r) (upd (know s) t st)) q')
  | S_settle pb t st r v : evq s = (t, st) :: r -> tree s = true -> pdone (know s) t = true -> next s t st = [] ->
      verdict_of tasks deps pb (upd (know s) t st) = v -> v <> VRunning ->
      Step s (Deliver pb) (set_tree (set_ins (set_know (set_evq s r) (upd (know s) t st)) (ist_of v)) false).

  Lemma existsb_eqb_in t (l : list Z) : existsb (Z.eqb t) l = true -> In t l.
  Proof. intros H. apply existsb_exists in H. destruct H as (x & Hx & E). apply Z.eqb_eq in E. subst x. exact Hx. Qed.

  Notation stepg := (step tasks deps validate cmdquiet nonoop).

  Lemma run_tr_step s k t w r' : run_tr k (runs s t) w r' -> stepg s (k t) = Some (moved s t w r').
  Proof.
    remember (runs s t) as r eqn:Er. intros Htr.
    destruct Htr as [sn [-> | ->]| | | | | | | |sn [-> | ->]|]; cbn; rewrite <- Er; reflexivity.
  Qed.

  Lemma run_Step s k t w r' s' : run_tr k (runs s t) w r' -> stepg s (k t) = Some s' -> Step s (k t) s'.
  Proof. intros Htr H. rewrite (run_tr_step s k t w r' Htr) in H. injection H as <-. exact (S_run s k t w r' Htr). Qed.

  Lemma verdict_inv s k v g t sn s' : pv_tr k v g -> stepg s (k t sn) = Some s' ->
    exists q', remove1 (t, sn) (pushq s) = Some q' /\ g sn = true /\ push_ok validate s t sn = true /\ s' = push_verdict s t v q'.
  Proof.
    intros Hpv H.
    assert (E : stepg s (k t sn) = match remove1 (t, sn) (pushq s) with
                                  | Some q' => if g sn && push_ok validate s t sn then Some (push_verdict s t v q') else None
                                  | None => None
                                  end) by (destruct Hpv; reflexivity).
    rewrite E in H. destruct (remove1 (t, sn) (pushq s)) as [q'|]; [|discriminate]. destruct (g sn); [|discriminate].
    destruct (push_ok validate s t sn); [|discriminate]. injection H as <-. exists q'. auto.
  Qed.

  Lemma verdict_Step s k v g t sn s' : pv_tr k v g -> stepg s (k t sn) = Some s' -> Step s (k t sn) s'.
  Proof. intros Hpv H. destruct (verdict_inv s k v g t sn s' Hpv H) as (q' & Er & Eg & Ep & ->). exact (S_verdict s k v g t sn q' Hpv Er Eg Ep). Qed.

  Lemma arm_Step s k v v' t s' : arm_tr k v v' -> stepg s (k t) = Some s' -> Step s (k t) s'.
  Proof.
    intros Harm H. pose proof (S_arm s k v v' t Harm) as S.
    destruct Harm; cbn in H; (destruct (ph s); try discriminate H); (destruct (store s t); try discriminate H);
      (destruct (existsb (Z.eqb t) tasks) eqn:Ex; [|discriminate H]); injection H as <-; exact (S eq_refl eq_refl (existsb_eqb_in _ _ Ex)).
  Qed.

  Theorem step_Step s l s' : stepg s l = Some s' -> Step s l s'.
  Proof.
    destruct l.
    (* the eight labels of a registered run: wherever one is enabled the table has its entry.  A copy of [H] is
       evaluated and split by the registration, only to discard the registrations under which the label is not
       enabled; [H] itself goes to [run_Step] as it is *)
    3-10: intros H; generalize H; cbn; destruct (runs s t) as [|[]| | | |] eqn:Er; try discriminate; intros _;
          refine (run_Step s _ t _ _ s' _ H); rewrite Er; constructor; solve [auto].
    (* the other labels in the order of [label]; each bullet ends in the constructor of [Step] or [ctl_tr] named after its label *)
    all: cbn.
    - destruct (remove1 (t, s0) (pend s)) eqn:Er; [|discriminate]. destruct (guard_ok validate s t s0) eqn:Eg; [|discriminate].
      intros [= <-]. apply S_accept; assumption.
    - destruct (remove1 (t, s0) (pend s)) eqn:Er; [|discriminate]. destruct (guard_ok validate s t s0) eqn:Eg; [discriminate|].
      intros [= <-]. apply S_drop; assumption.
    - destruct (runs s t) eqn:Er; try discriminate; intros [= <-]. apply S_finish. exact Er.
    - (* Deliver: [S_lost], [S_deliver] or [S_settle] *)
      destruct (evq s) as [|(t, st) r] eqn:Eq; [discriminate|].
      destruct (tree s && pdone (know s) t) eqn:Et; [|intros [= <-]; eapply S_lost; eassumption].
      apply andb_true_iff in Et. destruct Et as (Et & Ep). fold (next s t st).
      destruct (next s t st) as [|n N] eqn:EN.
      + destruct (verdict_of tasks deps pb (upd (know s) t st)) eqn:EV; intros [= <-];
          [|apply (S_settle s pb t st r _ Eq Et Ep EN EV); discriminate..].
        apply (S_deliver s pb t st r (pushq s) Eq Et Ep); [intros _; exact EV|]. rewrite EN. symmetry. apply app_nil_r.
      + intros [= <-]. apply (S_deliver s pb t st r _ Eq Et Ep); rewrite EN; [discriminate|reflexivity].
    - destruct (remove1 (t, s0) (pushq s)) eqn:Er; [|discriminate]. intros [= <-]. apply S_pushrun. exact Er.
    - exact (verdict_Step s _ _ _ t s0 s' P_skip).
    - exact (verdict_Step s _ _ _ t s0 s' P_block).
    - destruct (cmd s) eqn:Ec; [discriminate|]. destruct (negb cmdquiet || quiet tasks s) eqn:Eq; [|discriminate].
      intros [= <-]. exact (S_ctl s _ _ _ _ _ (C_issue s Ec Eq)).
    - destruct (ph s) eqn:Ep; try discriminate. destruct (cmd s) eqn:Ec; [|discriminate].
      destruct (negb cmdquiet || quiet tasks s) eqn:Eq; [|discriminate].
      intros [= <-]. exact (S_ctl s _ _ _ _ _ (C_begin s Ep Ec Eq)).
    - exact (arm_Step s _ _ _ t s' A_retry).
    - exact (arm_Step s _ _ _ t s' A_continue).
    - destruct (ph s) eqn:Ep; try discriminate. destruct (armed s) eqn:Ea.
      + intros [= <-]. exact (S_ctl s _ _ _ _ _ (C_patch s Ep Ea)).
      + destruct nonoop eqn:En; [discriminate|]. intros [= <-]. exact (S_ctl s _ _ _ _ _ (C_patch_noop s Ep Ea En)).
    - assert (G : ph s = PInit \/ (ph s = PDown /\ ins s = IRunning) -> Some (set_ph (initial tasks deps pb s) PIdle) = Some s' -> Step s (Rebuild pb) s').
      { intros Hg [= <-]. unfold initial. destruct (filter (pushable deps (store s)) tasks) eqn:Ef.
        - pose proof (S_ctl s _ _ _ _ _ (C_rebuild s pb _ Hg Ef eq_refl)) as H.
          destruct (verdict_of tasks deps pb (store s)); exact H.
        - rewrite <- Ef. apply S_rebuild; [exact Hg|]. rewrite Ef. discriminate. }
      destruct (ph s) eqn:Ep; try discriminate; [apply G; auto|].
      destruct (ins s) eqn:Ei; try discriminate. apply G. auto.
    - destruct (ph s) eqn:Ep; try discriminate.
      destruct (ins s) eqn:Ei; try discriminate; intros [= <-];
        (assert (Hi : ins s <> IRunning) by congruence); exact (S_ctl s _ _ _ _ _ (C_restart s Ep Hi)).
    - destruct (store s t) eqn:Es; try discriminate. destruct (runs s t) eqn:Er; try discriminate.
      intros [= <-]. apply S_wdfail; assumption.
    - intros [= <-]. apply S_crash.
  Qed.

  Lemma step_started s l s' x : stepg s l = Some s' ->
    started s' x = started s x \/ (l = MainStart x /\ started s' x = true) \/ l = Rearm x.
  Proof.
    intros HS. destruct (step_Step s l s' HS) as [| k t w r' Htr | | | | | | k v v' t Harm | | | | | |]; cbn; auto.
    - destruct (run_tr_spec _ _ _ _ Htr) as (_ & _ & _ & Hm). destruct r'; auto. rewrite (Hm eq_refl).
      destruct (Z.eq_dec x t) as [->|Hne]; [right; left; split; [reflexivity|apply upd_same]|left; apply upd_other; exact Hne].
    - destruct Harm; auto.
      destruct (Z.eq_dec x t) as [->|Hne]; [right; right; reflexivity|left; apply upd_other; exact Hne].
  Qed.

  (** C02 / C04: an attempt ends only when the retry command re-arms that very task *)
  Lemma started_kept s l s' t :
    stepg s l = Some s' -> started s t = true -> l <> Rearm t -> started s' t = true.
  Proof. intros HS Hst Hl. destruct (step_started s l s' t HS) as [E|[(_ & E)|E]]; congruence. Qed.

  Lemma started_kept_run t ls : forall s s', run tasks deps validate cmdquiet nonoop s ls = Some s' ->
    started s t = true -> ~ In (Rearm t) ls -> started s' t = true.
  Proof.
    induction ls as [|l ls IH]; cbn; intros s s' HR Hst Hni; [injection HR as <-; exact Hst|].
    destruct (stepg s l) as [s1|] eqn:E; [|discriminate]. apply (IH s1 s' HR); [|intros Hin; apply Hni; right; exact Hin].
    apply (started_kept s l s1 t E Hst). intros ->. apply Hni. left. reflexivity.
  Qed.

  Lemma step_store s l s' x : stepg s l = Some s' ->
    store s' x = store s x \/ writing (runs s x) \/
    (exists sn, In (x, sn) (pushq s) /\ can_skip sn = true /\ push_ok validate s x sn = true) \/
    (ph s = PArm /\ (store s x = SFailed \/ store s x = SBlocked)) \/ (store s x = SRunning /\ runs s x = RNone).
  Proof.
    intros HS.
    destruct (step_Step s l s' HS) as [| k t w r' Htr | | | | | k v g t sn q' Hpv Hr Hg Hok | k v v' t Harm Hp Hst | | t Hst Hr | | | |];
      cbn; auto; (destruct (Z.eq_dec x t) as [->|Hne]; [right|left; rewrite ?wstore_eq; apply upd_other; exact Hne]).
    - left. apply (run_tr_spec _ _ _ _ Htr).
    - right. left. exists sn. split; [eapply remove1_mem; exact Hr|]. split; [apply (pv_tr_spec _ _ _ _ Hpv Hg)|exact Hok].
    - right. right. left. split; [exact Hp|]. destruct Harm; auto.
    - right. right. right. split; assumption.
  Qed.
End Step.

Lemma is_none_true r : is_none r = true -> r = RNone.
Proof. destruct r; cbn; congruence. Qed.

Lemma guard_ok_true s t sn : guard_ok true s t sn = true -> runs s t = RNone /\ exec sn = true /\ store s t = sn.
Proof.
  unfold guard_ok. cbn. intros H. apply andb_true_iff in H. destruct H as (H & E). apply andb_true_iff in H. destruct H as (N & X).
  split; [apply is_none_true; exact N|]. split; [exact X|]. apply est_eqb_eq. exact E.
Qed.

Lemma push_ok_true s t sn : push_ok true s t sn = true -> store s t = sn /\ runs s t = RNone.
Proof.
  unfold push_ok. cbn. intros H. apply andb_true_iff in H. destruct H as (H & _). apply andb_true_iff in H. destruct H as (E & N).
  split; [apply est_eqb_eq; exact E|apply is_none_true; exact N].
Qed.

Lemma can_skip_unstarted sn : can_skip sn = true -> unstarted_st sn = true /\ done sn = false.
Proof. destruct sn; cbn; auto; discriminate. Qed.

Section Facts.
  Variable tasks : list Z.
  Variable deps : Z -> list Z.
  Variable cmdquiet nonoop : bool.

  Notation pdone := (parents_done deps).

  Lemma pdone_mono (f g : Z -> est) t :
    (forall d, done (f d) = true -> done (g d) = true) -> pdone f t = true -> pdone g t = true.
  Proof.
    unfold parents_done. intros H Hp. rewrite forallb_forall in *. intros d Hd. specialize (Hp d Hd). apply H. exact Hp.
  Qed.

  Lemma pdone_upd f t k v : done (f k) = false -> pdone f t = true -> pdone (upd f k v) t = true.
  Proof.
    intros Hk. apply pdone_mono. intros d Hd. destruct (Z.eq_dec d k) as [->|Hne]; [congruence|].
    rewrite upd_other by exact Hne. exact Hd.
  Qed.

  Record Inv (s : eng) : Prop := {
    iR : forall t, match runs s t with
                   | RQueued sn => store s t = sn /\ exec sn = true
                   | RRunning => store s t = SRunning /\ started s t = false
                   | RInMain => store s t = SRunning
                   | REnding => store s t = SEnding
                   | RDone _ | RNone => True
                   end;
    iK : forall t, done (know s t) = true -> store s t = know s t;
    iE : forall t st, In (t, st) (evq s) -> done st = true -> store s t = st;
    iD : forall t ev, runs s t = RDone ev -> done ev = true -> store s t = ev;
    iE2 : forall t, In (t, SInit) (evq s) -> pdone (store s) t = true;
    iP : forall c sn, In (c, sn) (pend s) -> pdone (store s) c = true;
    iPQ : forall c sn, In (c, sn) (pushq s) -> pdone (store s) c = true;
    iQ : forall t, runs s t <> RNone -> pdone (store s) t = true;
    iS : forall t, started s t = true -> unstarted_st (store s t) = false
  }.

  Lemma inv_boot : Inv boot.
  Proof. constructor; cbn; intros; try discriminate; try contradiction; auto. Qed.

  Lemma writing_status s t : Inv s -> writing (runs s t) -> exec (store s t) = true \/ store s t = SRunning.
  Proof.
    intros HI Hr. pose proof (iR s HI t) as H. destruct (runs s t); cbn in Hr; try contradiction.
    - left. destruct H as (-> & H). exact H.
    - right. apply H.
    - right. exact H.
    - left. rewrite H. reflexivity.
  Qed.

  Lemma writing_not_done s t : Inv s -> writing (runs s t) -> done (store s t) = false.
  Proof. intros HI Hr. destruct (writing_status s t HI Hr) as [H|H]; destruct (store s t); cbn in H |- *; congruence. Qed.

  Lemma not_started s t : Inv s -> unstarted_st (store s t) = true -> started s t = false.
  Proof. intros HI Hu. destruct (started s t) eqn:E; [|reflexivity]. rewrite (iS s HI t E) in Hu. discriminate. Qed.

  (** what the tree, the queued events, the registered runs and the deliveries of [s] rely on in a store [f]:
      clauses iK .. iQ of the invariant.  They speak of finished tasks only. *)
  Definition framed (s : eng) (f : Z -> est) : Prop :=
    (forall x, done (know s x) = true -> f x = know s x) /\
    (forall x st, In (x, st) (evq s) -> done st = true -> f x = st) /\
    (forall x ev, runs s x = RDone ev -> done ev = true -> f x = ev) /\
    (forall x, In (x, SInit) (evq s) -> pdone f x = true) /\
    (forall c sn, In (c, sn) (pend s) -> pdone f c = true) /\
    (forall c sn, In (c, sn) (pushq s) -> pdone f c = true) /\
    (forall x, runs s x <> RNone -> pdone f x = true).

  Lemma inv_framed s : Inv s -> framed s (store s).
  Proof. intros HI. repeat split; apply HI. Qed.

  Lemma framed_mono s f g : (forall x, done (f x) = true -> g x = f x) -> framed s f -> framed s g.
  Proof.
    intros H (FK & FE & FD & FE2 & FP & FPQ & FQ).
    assert (M : forall x, pdone f x = true -> pdone g x = true).
    { intros x. apply pdone_mono. intros d Hd. rewrite (H d Hd). exact Hd. }
    assert (E : forall x v, f x = v -> done v = true -> g x = v) by (intros x v <- Hd; exact (H x Hd)).
    repeat split.
    - intros x Hk. exact (E x _ (FK x Hk) Hk).
    - intros x st Hin Hs. exact (E x st (FE x st Hin Hs) Hs).
    - intros x ev Hx Hd. exact (E x ev (FD x ev Hx Hd) Hd).
    - intros x Hin. exact (M x (FE2 x Hin)).
    - intros c sn Hin. exact (M c (FP c sn Hin)).
    - intros c sn Hin. exact (M c (FPQ c sn Hin)).
    - intros x Hx. exact (M x (FQ x Hx)).
  Qed.

  Lemma frame s t v : Inv s -> done (store s t) = false ->
    (forall x, done (know s x) = true -> upd (store s) t v x = know s x) /\
    (forall x st, In (x, st) (evq s) -> done st = true -> upd (store s) t v x = st) /\
    (forall x ev, runs s x = RDone ev -> done ev = true -> upd (store s) t v x = ev) /\
    (forall x, In (x, SInit) (evq s) -> pdone (upd (store s) t v) x = true) /\
    (forall c sn, In (c, sn) (pend s) -> pdone (upd (store s) t v) c = true) /\
    (forall c sn, In (c, sn) (pushq s) -> pdone (upd (store s) t v) c = true) /\
    (forall x, runs s x <> RNone -> pdone (upd (store s) t v) x = true).
  Proof.
    intros HI Hns. apply (framed_mono s (store s)); [|exact (inv_framed s HI)].
    intros x Hx. apply upd_other. intros ->. congruence.
  Qed.

  Notation stepv := (step tasks deps true cmdquiet nonoop).

  Lemma inv_moved s k t w r' : Inv s -> run_tr k (runs s t) w r' -> Inv (moved s t w r').
  Proof.
    intros HI Htr. destruct (run_tr_spec _ _ _ _ Htr) as (Hw & Hr' & _ & _).
    assert (Hlive : runs s t <> RNone) by (intros E; rewrite E in Hw; exact Hw).
    pose proof (writing_not_done s t HI Hw) as Hns.
    assert (F : framed s (store (moved s t w r'))).
    { apply (framed_mono s (store s)); [|exact (inv_framed s HI)].
      intros x Hx. cbn. rewrite wstore_eq. apply upd_other. intros ->. congruence. }
    destruct F as (FK & FE & FD & FE2 & FP & FPQ & FQ).
    assert (Hru : forall x, runs (moved s t w r') x <> RNone -> runs s x <> RNone).
    { intros x. cbn. destruct (Z.eq_dec x t) as [->|Hne]; [auto|]. rewrite upd_other by exact Hne. auto. }
    constructor; try assumption.
    - (* at [t] by the table: a run goes to 'running' from an unstarted status only *)
      intros x. cbn. rewrite wstore_eq.
      destruct (Z.eq_dec x t) as [->|Hne]; [|destruct r'; rewrite !upd_other by exact Hne; apply (iR s HI x)].
      rewrite !upd_same. pose proof (iR s HI t) as Ht. pose proof (not_started s t HI) as Hn.
      destruct Htr as [sn Hsn| | | | | | | | |]; cbn in *; auto; try apply Ht.
      split; [reflexivity|]. apply Hn. destruct Ht as (-> & _). destruct Hsn as [-> | ->]; reflexivity.
    - intros x ev. cbn.
      destruct (Z.eq_dec x t) as [->|Hne]; [rewrite wstore_eq|rewrite upd_other by exact Hne; exact (FD x ev)].
      rewrite !upd_same. destruct Htr; try discriminate; intros [= <-] _; reflexivity.
    - intros x Hx. exact (FQ x (Hru x Hx)).
    - (* a started task is given an unstarted status only by the retry hook, whose task has not started *)
      intros x. cbn. rewrite wstore_eq.
      destruct (Z.eq_dec x t) as [->|Hne]; [|destruct r'; rewrite !upd_other by exact Hne; apply (iS s HI x)].
      rewrite upd_same. pose proof (iR s HI t) as Ht. pose proof (iS s HI t) as Hs.
      destruct Htr; cbn in *; auto.
      + intros E. rewrite (proj1 Ht) in Hs. exact (Hs E).
      + intros _. rewrite (proj1 Ht). reflexivity.
  Qed.

  (** Which fields each clause reads.  None reads [ins], [tree], [ph], [armed], [cmd]; the queues are read by iE,
      iE2, iP and iPQ, the registrations by iR, iD and iQ, the tree by iK, the store by all of them. *)
  Lemma inv_ctl s i p a c : Inv s -> Inv (ctl s i p a c).
  Proof. intros HI. constructor; apply HI. Qed.

  Lemma inv_set_tree s b : Inv s -> Inv (set_tree s b).
  Proof. intros HI. constructor; apply HI. Qed.

  Lemma inv_queues s e p q : Inv s ->
    (forall x st, In (x, st) e -> (done st = true -> store s x = st) /\ (st = SInit -> pdone (store s) x = true)) ->
    (forall c sn, In (c, sn) (q ++ p) -> pdone (store s) c = true) ->
    Inv (set_pushq (set_pend (set_evq s e) p) q).
  Proof.
    intros HI He Hqp. constructor; cbn; try apply HI.
    - intros x st Hin. apply (He x st Hin).
    - intros x Hin. apply (He x SInit Hin). reflexivity.
    - intros c sn Hin. apply (Hqp c sn). apply in_or_app. right. exact Hin.
    - intros c sn Hin. apply (Hqp c sn). apply in_or_app. left. exact Hin.
  Qed.

  Lemma inv_ev s x st : Inv s -> In (x, st) (evq s) -> (done st = true -> store s x = st) /\ (st = SInit -> pdone (store s) x = true).
  Proof. intros HI Hin. split; [apply (iE s HI x st Hin)|intros ->; apply (iE2 s HI x Hin)]. Qed.

  Lemma inv_dl s c sn : Inv s -> In (c, sn) (pushq s ++ pend s) -> pdone (store s) c = true.
  Proof. intros HI Hin. apply in_app_or in Hin. destruct Hin as [Hin|Hin]; [apply (iPQ s HI c sn Hin)|apply (iP s HI c sn Hin)]. Qed.

  Lemma inv_queues_incl s e p q : Inv s -> incl e (evq s) -> incl (q ++ p) (pushq s ++ pend s) ->
    Inv (set_pushq (set_pend (set_evq s e) p) q).
  Proof.
    intros HI He Hqp.
    exact (inv_queues s e p q HI (fun x st Hin => inv_ev s x st HI (He _ Hin)) (fun c sn Hin => inv_dl s c sn HI (Hqp _ Hin))).
  Qed.

  Lemma inv_post s t v : Inv s -> (done v = true -> store s t = v) -> (v = SInit -> pdone (store s) t = true) ->
    Inv (set_evq s (evq s ++ [(t, v)])).
  Proof.
    intros HI Hd Hi. refine (inv_queues s _ (pend s) (pushq s) HI _ (fun c sn => inv_dl s c sn HI)).
    intros x st Hin. apply in_app_or in Hin. destruct Hin as [Hin|[[= -> ->]|[]]]; [exact (inv_ev s x st HI Hin)|auto].
  Qed.

  Lemma inv_push s N : Inv s -> (forall x, In x N -> pdone (store s) x = true) -> Inv (set_pushq s (pushq s ++ snap (store s) N)).
  Proof.
    intros HI HN. refine (inv_queues s (evq s) (pend s) _ HI (fun x st => inv_ev s x st HI) _).
    intros c sn Hin. rewrite !in_app_iff in Hin. destruct Hin as [[Hin|Hin]|Hin]; [exact (iPQ s HI c sn Hin)| |exact (iP s HI c sn Hin)].
    apply in_map_iff in Hin. destruct Hin as (x & [= -> _] & Hin). exact (HN c Hin).
  Qed.

  Lemma inv_runs s ru : Inv s ->
    (forall x, ru x = runs s x \/ ru x = RNone \/
               exists sn, ru x = RQueued sn /\ store s x = sn /\ exec sn = true /\ pdone (store s) x = true) ->
    Inv (set_runs s ru).
  Proof.
    intros HI H. constructor; cbn; try apply HI.
    - intros x. destruct (H x) as [-> | [-> | (sn & -> & A & B & _)]]; [apply (iR s HI)|exact I|split; assumption].
    - intros x ev. destruct (H x) as [-> | [-> | (sn & -> & _)]]; [apply (iD s HI)|discriminate|discriminate].
    - intros x. destruct (H x) as [-> | [-> | (sn & -> & _ & _ & C)]]; [apply (iQ s HI)|congruence|intros _; exact C].
  Qed.

  Lemma inv_know s k : Inv s -> (forall x, done (k x) = true -> store s x = k x) -> Inv (set_know s k).
  Proof. intros HI H. constructor; cbn; try apply HI. exact H. Qed.

  Lemma inv_write s t v : Inv s -> done (store s t) = false -> ~ writing (runs s t) ->
    (started s t = true -> unstarted_st v = false) -> Inv (set_store s (upd (store s) t v)).
  Proof.
    intros HI Hns Hnw Hv. destruct (frame s t v HI Hns) as (FK & FE & FD & FE2 & FP & FPQ & FQ).
    constructor; cbn; try assumption.
    - intros x. destruct (Z.eq_dec x t) as [->|Hne]; [|rewrite upd_other by exact Hne; apply (iR s HI)].
      destruct (runs s t); cbn in Hnw; try exact I; exfalso; apply Hnw; exact I.
    - intros x. destruct (Z.eq_dec x t) as [->|Hne]; [rewrite upd_same; exact Hv|rewrite upd_other by exact Hne; apply (iS s HI)].
  Qed.

  Lemma inv_started s f : Inv s -> (forall x, f x = true -> started s x = true) -> Inv (set_started s f).
  Proof.
    intros HI H. constructor; cbn; try apply HI.
    - intros x. pose proof (iR s HI x) as Hx. destruct (runs s x); try exact Hx. split; [apply Hx|].
      destruct (f x) eqn:E; [|reflexivity]. rewrite <- (proj2 Hx). symmetry. exact (H x E).
    - intros x Hx. exact (iS s HI x (H x Hx)).
  Qed.

  Lemma inv_lost s t st r : Inv s -> evq s = (t, st) :: r -> Inv (set_evq s r).
  Proof. intros HI Heq. refine (inv_queues_incl s r (pend s) (pushq s) HI _ (incl_refl _)). rewrite Heq. apply incl_tl, incl_refl. Qed.

  Lemma inv_take s t st r : Inv s -> evq s = (t, st) :: r -> Inv (set_know (set_evq s r) (upd (know s) t st)).
  Proof.
    intros HI Heq. refine (inv_know (set_evq s r) _ (inv_lost s t st r HI Heq) _).
    intros x. destruct (upd_cases (know s) t st x) as [(-> & ->)|(_ & ->)]; [|exact (iK s HI x)].
    apply (iE s HI t st). rewrite Heq. left. reflexivity.
  Qed.

  Lemma inv_step s l s' : Inv s -> stepv s l = Some s' -> Inv s'.
  Proof.
    intros HI HS.
    destruct (step_Step _ _ _ _ _ _ _ _ HS) as [l i p a c _ | k t w r' Htr | t sn p' Hr Hg | t sn p' Hr _ | t ev Hr | t sn q' Hr
      | k v g t sn q' Hpv Hr Hg Hok | k v v' t Harm _ Hst _ | pb _ _ | t Hst Hr | | pb t st r Heq _ | pb t st r q' Heq _ _ _ Hq
      | pb t st r v Heq _ _ _ _ _]; clear HS.
    - exact (inv_ctl s i p a c HI).
    - exact (inv_moved s k t w r' HI Htr).
    - (* accept *)
      destruct (guard_ok_true _ _ _ Hg) as (_ & Hex & Hst).
      refine (inv_queues_incl (set_runs s _) (evq s) p' (pushq s) (inv_runs s _ HI _) (incl_refl _)
                (incl_app_app (incl_refl _) (remove1_incl _ _ _ Hr))).
      intros x. destruct (upd_cases (runs s) t (RQueued sn) x) as [(-> & ->)|(_ & ->)]; [right; right; exists sn|left; reflexivity].
      repeat split; try assumption. apply (iP s HI t sn). eapply remove1_mem; exact Hr.
    - (* drop *)
      exact (inv_queues_incl s (evq s) p' (pushq s) HI (incl_refl _) (incl_app_app (incl_refl _) (remove1_incl _ _ _ Hr))).
    - (* finish *)
      assert (Hlive : runs s t <> RNone) by congruence.
      refine (inv_post (set_runs s _) t ev (inv_runs s _ HI _) (iD s HI t ev Hr) (fun _ => iQ s HI t Hlive)).
      intros x. destruct (upd_cases (runs s) t RNone x) as [(_ & ->)|(_ & ->)]; auto.
    - (* pushrun *)
      refine (inv_queues_incl s (evq s) _ q' HI (incl_refl _) _). rewrite app_assoc.
      exact (incl_app (incl_app_app (remove1_incl _ _ _ Hr) (incl_refl _)) (incl_cons (in_or_app _ _ _ (or_introl (remove1_mem _ _ _ Hr))) (incl_nil_l _))).
    - (* a pre-check verdict: the snapshot is current, so the task has not started, and the executor holds nothing for it *)
      destruct (push_ok_true _ _ _ Hok) as (Hst & Hrn). destruct (pv_tr_spec _ _ _ sn Hpv Hg) as (Hv & Hcs).
      destruct (can_skip_unstarted sn Hcs) as (Hu & Hnd). rewrite <- Hst in Hu, Hnd.
      assert (HX : Inv (set_store s (upd (store s) t v))).
      { apply inv_write; try assumption; [rewrite Hrn; exact (fun H => H)|]. intros E. rewrite (not_started s t HI Hu) in E. discriminate. }
      refine (inv_post _ t v (inv_queues_incl _ (evq s) (pend s) q' HX (incl_refl _) (incl_app_app (remove1_incl _ _ _ Hr) (incl_refl _))) _ _).
      + intros _. apply upd_same.
      + intros ->. destruct Hv; discriminate.
    - (* a command re-arms its target; a retry opens a new attempt *)
      assert (Hnw : ~ writing (runs s t)).
      { intros Hw. destruct (writing_status s t HI Hw) as [H|H]; rewrite Hst in H; destruct Harm; discriminate. }
      assert (Hnd : done (store s t) = false) by (rewrite Hst; destruct Harm; reflexivity).
      refine (inv_ctl (set_store (set_started s _) _) (ins s) (ph s) true (cmd s) (inv_write (set_started s _) t v' _ Hnd Hnw _)).
      + apply inv_started; [exact HI|]. intros x. destruct Harm; [|auto].
        destruct (upd_cases (started s) t false x) as [(_ & ->)|(_ & ->)]; [discriminate|auto].
      + cbn. destruct Harm; [rewrite upd_same; discriminate|]. intros E. rewrite (not_started s t HI) in E; [discriminate|rewrite Hst; reflexivity].
    - (* rebuild: the tree is the store, what is pushed is pushable *)
      refine (inv_ctl _ (ins s) PIdle (armed s) (cmd s) (inv_push _ _ (inv_set_tree _ true (inv_know s (store s) HI (fun x _ => eq_refl))) _)).
      intros x Hin. apply filter_In in Hin. destruct Hin as (_ & Hin). apply andb_true_iff in Hin. apply Hin.
    - (* the watchdog *)
      refine (inv_ctl _ IFailed (ph s) (armed s) (cmd s) (inv_write s t SFailed HI _ _ (fun _ => eq_refl))); [rewrite Hst; reflexivity|].
      rewrite Hr. exact (fun H => H).
    - (* crash *)
      exact (inv_ctl _ (ins s) PDown false (cmd s) (inv_set_tree _ false
               (inv_queues_incl _ [] [] [] (inv_runs s _ HI (fun _ => or_intror (or_introl eq_refl))) (incl_nil_l _) (incl_nil_l _)))).
    - (* a completion event finds no tree, or its node not reached *)
      exact (inv_lost s t st r HI Heq).
    - (* what is pushed has its dependencies finished in the tree, hence in the store; or is the task sent back as init *)
      pose proof (inv_take s t st r HI Heq) as HX. subst q'. refine (inv_push _ _ HX _).
      intros x Hin. unfold next in Hin. destruct (done st).
      + apply filter_In in Hin. destruct Hin as (_ & Hin). apply andb_true_iff in Hin. destruct Hin as (_ & Hin).
        revert Hin. apply pdone_mono. intros d Hd. rewrite (iK _ HX d Hd). exact Hd.
      + destruct (est_eqb_eq st SInit) as (E & _). destruct (est_eqb st SInit); [|destruct Hin]. destruct Hin as [<-|[]].
        apply (iE2 s HI t). rewrite Heq, (E eq_refl). left. reflexivity.
    - exact (inv_ctl _ (ist_of v) (ph s) (armed s) (cmd s) (inv_set_tree _ false (inv_take s t st r HI Heq))).
  Qed.

  (* [Engine.run] is the fixpoint [Lts.run] of [step], written out: the two are convertible *)
  Theorem inv_reach ls : forall s s', Inv s -> run tasks deps true cmdquiet nonoop s ls = Some s' -> Inv s'.
  Proof. exact (run_inv (step tasks deps true cmdquiet nonoop) Inv inv_step ls). Qed.

  Corollary inv_history ls s : run tasks deps true cmdquiet nonoop boot ls = Some s -> Inv s.
  Proof. exact (inv_reach ls boot s inv_boot). Qed.

  (** C01: a main action starts only when every dependency is recorded success or skipped *)
  Theorem main_start_parents_done s t s' : Inv s -> stepv s (MainStart t) = Some s' -> pdone (store s) t = true.
  Proof.
    intros HI HS. cbn in HS. destruct (runs s t) eqn:Er; try discriminate. apply (iQ s HI t). congruence.
  Qed.

  (** C02 / C04: at most one main-action start per attempt (an attempt ends with a retry command), crashes included *)
  Theorem main_start_once s t s' : Inv s -> stepv s (MainStart t) = Some s' -> started s t = false /\ started s' t = true.
  Proof.
    intros HI HS. cbn in HS. pose proof (iR s HI t) as H. destruct (runs s t) eqn:Er; try discriminate.
    inv HS. cbn. rewrite upd_same. destruct H as (_ & H). split; [exact H|reflexivity].
  Qed.

  Theorem main_start_after_running s t s' : Inv s -> stepv s (MainStart t) = Some s' -> store s t = SRunning.
  Proof.
    intros HI HS. cbn in HS. pose proof (iR s HI t) as H. destruct (runs s t) eqn:Er; try discriminate. apply H.
  Qed.

  (** C15 / C13: a finished task (success or skipped) is never given another status *)
  Theorem done_final s l s' t : Inv s -> stepv s l = Some s' -> done (store s t) = true -> store s' t = store s t.
  Proof.
    intros HI HS Hst.
    destruct (step_store _ _ _ _ _ s l s' t HS) as [E|[Hw|[(sn & _ & Hc & Hok)|[(_ & [E|E])|(E & _)]]]]; try exact E; exfalso;
      try (rewrite E in Hst; discriminate).
    - rewrite (writing_not_done s t HI Hw) in Hst. discriminate.
    - destruct (push_ok_true _ _ _ Hok) as (<- & _). rewrite (proj2 (can_skip_unstarted _ Hc)) in Hst. discriminate.
  Qed.

  (** C13: a task recorded blocked has not started its main action in the current attempt, and no run of it can
      still write *)
  Theorem blocked_not_started s t : Inv s -> store s t = SBlocked -> started s t = false.
  Proof. intros HI Hst. apply (not_started s t HI). rewrite Hst. reflexivity. Qed.

  Theorem blocked_has_no_run s t : Inv s -> store s t = SBlocked -> ~ writing (runs s t).
  Proof. intros HI Hst Hw. destruct (writing_status s t HI Hw) as [H|H]; rewrite Hst in H; discriminate. Qed.

  (** C13: a push whose skip (block) check fires records the verdict and runs nothing: no run of the task is
      registered, its main action has not started in this attempt, and none of that changes *)
  Theorem push_verdict_runs_nothing s t sn s' :
    Inv s -> stepv s (PushSkip t sn) = Some s' \/ stepv s (PushBlock t sn) = Some s' ->
    (store s' t = SSkipped \/ store s' t = SBlocked) /\ runs s' t = RNone /\ started s' t = false /\
    (forall x, runs s' x = runs s x) /\ (forall x, started s' x = started s x).
  Proof.
    intros HI HS.
    assert (H : exists k v g, pv_tr k v g /\ stepv s (k t sn) = Some s') by (destruct HS; eauto using pv_tr).
    destruct H as (k & v & g & Hpv & HS'). destruct (verdict_inv _ _ _ _ _ s k v g t sn s' Hpv HS') as (q' & _ & Hg & Hok & ->).
    destruct (pv_tr_spec k v g sn Hpv Hg) as (Hv & Hc). destruct (push_ok_true _ _ _ Hok) as (Est & Hrn). cbn. rewrite upd_same.
    repeat split; auto. apply (not_started s t HI). rewrite Est. apply can_skip_unstarted. exact Hc.
  Qed.

  (** C13: after a continue command the block checks are bypassed (a continued task cannot be blocked by the
      push), while a skip check still applies *)
  Theorem continued_task_not_blocked s t : stepv s (PushBlock t SContinue) = None.
  Proof. cbn. destruct (remove1 (t, SContinue) (pushq s)); reflexivity. Qed.

  Theorem continued_task_can_be_skipped s t q' :
    remove1 (t, SContinue) (pushq s) = Some q' -> store s t = SContinue -> runs s t = RNone ->
    (forall sn, ~ In (t, sn) (pend s)) -> exists s', stepv s (PushSkip t SContinue) = Some s' /\ store s' t = SSkipped.
  Proof.
    intros Hr Hst Hrn Hnp. cbn. rewrite Hr, Hst, Hrn. cbn.
    assert (E : existsb (fun p => Z.eqb (fst p) t) (pend s) = false).
    { destruct (existsb (fun p => Z.eqb (fst p) t) (pend s)) eqn:E; [|reflexivity]. exfalso.
      apply existsb_exists in E. destruct E as ((x, sn) & Hin & He). cbn in He. apply Z.eqb_eq in He. subst x. exact (Hnp sn Hin). }
    rewrite E. cbn. eexists. split; [reflexivity|]. cbn. apply upd_same.
  Qed.
End Facts.
(** the code as it is: after a retry command re-initialised the instance while other deliveries were still
    queued, a task that was already delivered is delivered again with the snapshot 'init'; once its first
    run is over the second delivery is accepted.  ([nonoop] is on in the witnesses.  It only restricts: off, it
    lets [CmdPatch] end a command that re-armed nothing and takes no step away, so these are histories of the
    system with all three switches off as well.) *)
Definition deps3 (t : Z) : list Z := if Z.eqb t 3 then [2] else [].
Definition witness_dup : list label :=
  [Rebuild false; PushRun 1 SInit; PushRun 2 SInit; Accept 1 SInit; StartWrite 1; MainStart 1; MainErr 1; Finish 1; Deliver false;
   CmdIssue; CmdBegin; Rearm 1; CmdPatch; Rebuild false; PushRun 2 SInit;
   Accept 2 SInit; StartWrite 2; MainStart 2; MainOk 2; AfterOk 2; Finish 2; Deliver false; PushRun 3 SInit;
   Accept 2 SInit; StartWrite 2; Accept 3 SInit; StartWrite 3].

Theorem unvalidated_refuted :
  exists s, run [1; 2; 3] deps3 false false true boot witness_dup = Some s /\
            (* task 2 was success and is running again, its main action about to start a second time in the same attempt *)
            store s 2 = SRunning /\ started s 2 = true /\ (exists s', step [1; 2; 3] deps3 false false true s (MainStart 2) = Some s') /\
            (* task 3 is about to start its main action although its dependency is not success *)
            (exists s', step [1; 2; 3] deps3 false false true s (MainStart 3) = Some s') /\ parents_done deps3 (store s) 3 = false.
Proof.
  eexists. split; [vm_compute; reflexivity|]. cbn.
  repeat split; try reflexivity; eexists; reflexivity.
Qed.

(** a pre-check verdict written by a duplicate push while the first delivery is already registered: the task
    is recorded skipped, its dependent starts, and the registered run then overwrites 'skipped' with 'running' *)
Definition witness_dup_skip : list label :=
  [Rebuild false; PushRun 1 SInit; PushRun 2 SInit; Accept 1 SInit; StartWrite 1; MainStart 1; MainErr 1; Finish 1; Deliver false;
   CmdIssue; CmdBegin; Rearm 1; CmdPatch; Accept 2 SInit; Rebuild false; PushSkip 2 SInit].

Theorem skipped_overwritten_refuted :
  exists s s', run [1; 2; 3] deps3 false false true boot witness_dup_skip = Some s /\
               step [1; 2; 3] deps3 false false true s (StartWrite 2) = Some s' /\ store s 2 = SSkipped /\ store s' 2 = SRunning.
Proof.
  eexists. eexists. split; [vm_compute; reflexivity|]. split; [vm_compute; reflexivity|]. split; reflexivity.
Qed.

Example validated_refuses_witness :
  run [1; 2; 3] deps3 true false true boot witness_dup = None /\ run [1; 2; 3] deps3 true false true boot witness_dup_skip = None.
Proof. split; vm_compute; reflexivity. Qed.
