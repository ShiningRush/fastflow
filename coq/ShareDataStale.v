(** ShareDataStale: two dictionary OBJECTS for one instance over one stored dictionary.  The tasks of a live task
    tree share the dictionary of the DagInstance they were pushed with; when the command watcher re-initialises
    the instance (retry / continue) it builds the new tree around the DagInstance it LISTED at the start of its
    round - a second dictionary object whose content is a snapshot.  A Set through either object writes the key
    into that object and saves the object's whole content (ShareData.Set; the per-object mutex of
    ShareDataConc serialises the Sets of one object, which is why each Set is one step here).

    [shared = true]: the re-initialisation keeps the live dictionary (both handles are one object);
    [shared = false]: the code as it is. *)
From Coq Require Import List ZArith.
From FF Require Import Lts ShareData ShareDataFacts.
Import ListNotations.
Local Open Scope Z_scope.

Record ss := { live : dict; snap : dict; stored : dict }.

Inductive slabel :=
| SList                    (* the watcher lists the instance: the snapshot is what the store holds now *)
| SSetLive (k v : Z)       (* a task of the live tree stores a key *)
| SSetSnap (k v : Z).      (* a task pushed by the re-initialisation stores a key *)

Section S.
  Variable shared : bool.

  Definition sstep (s : ss) (l : slabel) : ss :=
    match l with
    | SList => {| live := live s; snap := stored s; stored := stored s |}
    | SSetLive k v => let d := d_set (live s) k v in {| live := d; snap := snap s; stored := d |}
    | SSetSnap k v =>
        if shared then let d := d_set (live s) k v in {| live := d; snap := snap s; stored := d |}
        else let d := d_set (snap s) k v in {| live := live s; snap := d; stored := d |}
    end.

  Definition srun (s : ss) (ls : list slabel) : ss := fold_left sstep ls s.
End S.

Definition sinit (d : dict) : ss := {| live := d; snap := d; stored := d |}.

Definition has_key (d : dict) (k : Z) : Prop := d_get d k <> None.

Lemma has_key_set d k v x : has_key d x -> has_key (d_set d k v) x.
Proof. apply d_set_keeps. Qed.

Lemma shared_inv ls : forall s, stored s = live s -> stored (srun true s ls) = live (srun true s ls).
Proof. apply (fold_left_inv (sstep true) (fun s => stored s = live s)). intros s l _ E. destruct l; cbn; congruence. Qed.

(** reusing the live dictionary only while a tree is live is not enough: when the last live task finishes
    between the listing and the re-initialisation the snapshot is all there is - the lost update needs no second
    live handle, only a listing older than a Set *)
Theorem stale_listing_refuted :
  exists s, s = srun false (sinit []) [SList; SSetLive 1 10; SSetSnap 2 20] /\
            snap (srun false (sinit []) [SList; SSetLive 1 10]) = [] /\ d_get (stored s) 1 = None.
Proof. eexists; split; [reflexivity|]. vm_compute. split; reflexivity. Qed.
