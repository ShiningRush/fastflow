(** Theorems about the store contract model (C19, and the filters used by C06/C14). *)
From Coq Require Import List ZArith Bool Arith Lia.
From FF Require Import Sx StoreModel.
Import ListNotations.
Local Open Scope Z_scope.

Lemma find_upd_first {A} (key : A -> Z) (f : A -> A) id id' l :
  (forall x, key (f x) = key x) ->
  find (fun r => key r =? id') (fst (upd_first (fun r => key r =? id) f l)) =
  if id' =? id then option_map f (find (fun r => key r =? id) l) else find (fun r => key r =? id') l.
Proof.
  intros K. induction l as [|x r IH]; simpl; [destruct (id' =? id); reflexivity|].
  destruct (Z.eqb_spec (key x) id) as [E|E]; simpl.
  - rewrite K, E, (Z.eqb_sym id id'). destruct (id' =? id); reflexivity.
  - destruct (upd_first _ f r) as [r' b]. simpl in *. rewrite IH.
    destruct (Z.eqb_spec id' id) as [->|_]; [|reflexivity].
    apply Z.eqb_neq in E. rewrite E. reflexivity.
Qed.

Lemma upd_first_found {A} (p : A -> bool) (f : A -> A) (l : list A) :
  snd (upd_first p f l) = existsb p l.
Proof.
  induction l as [|x r IH]; simpl; [reflexivity|].
  destruct (p x); simpl; [reflexivity|]. destruct (upd_first p f r); simpl in *. exact IH.
Qed.

Lemma upd_first_length {A} (p : A -> bool) (f : A -> A) (l : list A) :
  length (fst (upd_first p f l)) = length l.
Proof.
  induction l as [|x r IH]; simpl; [reflexivity|].
  destruct (p x); simpl; [reflexivity|]. destruct (upd_first p f r); simpl in *. rewrite IH. reflexivity.
Qed.

Definition with_upd_t (r : trec) (now : Z) : trec :=
  mkT (t_id r) (t_ins r) (t_gid r) (t_deps r) (t_timeout r) (t_status r) (t_reason r) (t_traces r) now (t_rest r).
Definition with_upd_i (r : irec) (now : Z) : irec :=
  mkI (i_id r) (i_worker r) (i_status r) (i_reason r) (i_cmd r) (i_share r) now (i_rest r).

Lemma find_app_none {A} (p : A -> bool) l x :
  find p l = None -> find p (l ++ [x]) = if p x then Some x else None.
Proof. induction l as [|y r IH]; simpl; intros H; [reflexivity|]. destruct (p y); [discriminate|apply IH, H]. Qed.

Lemma existsb_find_none {A} (p : A -> bool) l : existsb p l = false -> find p l = None.
Proof. induction l as [|y r IH]; simpl; intros H; [reflexivity|]. destruct (p y); [discriminate|apply IH, H]. Qed.

Theorem patch_task_frame now s id st rs tr :
  id <> 0 ->
  let s' := fst (patch_task now s id st rs tr) in
  insts s' = insts s /\
  (forall id', id' <> id -> get_task s' id' = get_task s id') /\
  (forall r, get_task s id = RTask r ->
     get_task s' id = RTask (mkT (t_id r) (t_ins r) (t_gid r) (t_deps r) (t_timeout r)
                                 (if Z.eqb st 0 then t_status r else st)
                                 (if Z.eqb rs 0 then t_reason r else rs)
                                 (match tr with [] => t_traces r | _ => tr end) now (t_rest r))) /\
  (get_task s id = RNotFound -> get_task s' id = RNotFound) /\
  length (tasks s') = length (tasks s).
Proof.
  intros Hid. unfold patch_task, get_task. apply Z.eqb_neq in Hid. rewrite Hid. simpl.
  split; [reflexivity|]. split; [|split; [|split]].
  - intros id' Hne. apply Z.eqb_neq in Hne. rewrite find_upd_first, Hne; reflexivity.
  - intros r Hr. rewrite find_upd_first, Z.eqb_refl by reflexivity.
    destruct (find _ (tasks s)) as [r0|]; [|discriminate]. injection Hr as ->. reflexivity.
  - intros Hr. rewrite find_upd_first, Z.eqb_refl by reflexivity.
    destruct (find _ (tasks s)); [discriminate|reflexivity].
  - apply upd_first_length.
Qed.

Theorem patch_ins_frame now s id share st cmd must_cmd wk rs must_rs :
  let s' := fst (patch_ins now s id share st cmd must_cmd wk rs must_rs) in
  tasks s' = tasks s /\
  (forall id', id' <> id -> get_ins s' id' = get_ins s id') /\
  (forall r, get_ins s id = RIns r ->
     get_ins s' id = RIns (mkI (i_id r)
                              (if Z.eqb wk 0 then i_worker r else wk)
                              (if Z.eqb st 0 then i_status r else st)
                              (if must_rs || negb (Z.eqb rs 0) then rs else i_reason r)
                              (match cmd with Some c => Some c | None => if must_cmd then None else i_cmd r end)
                              (match share with Some d => Some d | None => i_share r end)
                              now (i_rest r))) /\
  length (insts s') = length (insts s).
Proof.
  unfold patch_ins, get_ins. simpl. split; [reflexivity|]. split; [|split].
  - intros id' Hne. apply Z.eqb_neq in Hne. rewrite find_upd_first, Hne; reflexivity.
  - intros r Hr. rewrite find_upd_first, Z.eqb_refl by reflexivity.
    destruct (find _ (insts s)) as [r0|]; [|discriminate]. injection Hr as ->. reflexivity.
  - apply upd_first_length.
Qed.

Corollary patch_ins_status_only now s id st r :
  get_ins s id = RIns r ->
  get_ins (fst (patch_ins now s id None st None false 0 0 false)) id =
  RIns (mkI (i_id r) (i_worker r) (if Z.eqb st 0 then i_status r else st) (i_reason r) (i_cmd r) (i_share r) now (i_rest r)).
Proof. intros H. apply (patch_ins_frame now s id None st None false 0 0 false) in H. exact H. Qed.

Theorem list_tasks_exact now s f r :
  In r (list_tasks now s f) <-> In r (tasks s) /\ task_matches now f r = true.
Proof. unfold list_tasks. apply filter_In. Qed.

Theorem list_ins_exact_nolimit s f r :
  if_limit f <= 0 ->
  (In r (list_ins s f) <-> In r (insts s) /\ ins_matches f r = true).
Proof.
  intros H. unfold list_ins, take_limit. destruct (Z.ltb_spec 0 (if_limit f)); [lia|]. apply filter_In.
Qed.

Lemma In_firstn {A} (x : A) n l : In x (firstn n l) -> In x l.
Proof. intros H. rewrite <- (firstn_skipn n l). apply in_or_app. left. exact H. Qed.

Theorem expired_iff now r : expired now r = true <-> t_upd r <= now - 5 - t_timeout r.
Proof. unfold expired. apply Z.leb_le. Qed.

Lemma split_last_dash_spec l p s :
  split_last_dash l = Some (p, s) -> l = p ++ 45 :: s /\ ~ In 45 s.
Proof.
  revert p s. induction l as [|c r IH]; intros p s H; simpl in H; [discriminate|].
  destruct (split_last_dash r) as [[p' s']|] eqn:E.
  - injection H as <- <-. destruct (IH p' s' eq_refl) as [-> Hn]. split; [reflexivity|exact Hn].
  - destruct (Z.eqb_spec c 45); [|discriminate]. injection H as <- <-. subst c. split; [reflexivity|].
    clear IH. revert E. induction r as [|d r IH]; simpl; intros E; [tauto|].
    destruct (split_last_dash r) as [[? ?]|]; [discriminate|].
    destruct (Z.eqb_spec d 45); [discriminate|]. intros [H|H]; [congruence|]. apply IH; auto.
Qed.

Lemma split_last_dash_complete p s :
  ~ In 45 s -> split_last_dash (p ++ 45 :: s) = Some (p, s).
Proof.
  intros Hs.
  assert (Hn : split_last_dash s = None).
  { induction s as [|d r IH]; simpl; [reflexivity|].
    rewrite IH by (intro; apply Hs; right; assumption).
    destruct (Z.eqb_spec d 45); [exfalso; apply Hs; left; assumption|reflexivity]. }
  induction p as [|c p IH]; simpl.
  - rewrite Hn. reflexivity.
  - rewrite IH. reflexivity.
Qed.

Lemma digits_no_dash s : forallb is_digit s = true -> ~ In 45 s.
Proof.
  intros H Hin. rewrite forallb_forall in H. specialize (H 45 Hin). discriminate.
Qed.

(** sonyflake id = time * 2^24 + sequence * 2^16 + machine id, sequence < 2^8, machine < 2^16 *)
Definition flake_id (time seq machine : Z) : Z := time * 16777216 + seq * 65536 + machine.

Example worker_key_example : check_worker_key [119; 45; 49; 50] = Some 12.
Proof. reflexivity. Qed.
Example patch_example :
  get_task (fst (patch_task 9 (fst (create_task 5 empty_store (mkT 1 2 3 [] 30 1 0 [] 0 (L [])))) 1 2 0 [])) 1
  = RTask (mkT 1 2 3 [] 30 2 0 [] 9 (L [])).
Proof. reflexivity. Qed.
