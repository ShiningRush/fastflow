(** Facts about TaskTree: BuildRootNode's validation accepts exactly the valid DAGs, given fuel enough (C16;
    TreeFuel.v shows that the fuel is enough), and what the users of the walk return: GetExecutableTaskIds and
    GetNextTaskIds (C01, C04, C12), ComputeStatus (C03). *)
From Coq Require Import List ZArith Bool Arith Lia Wf_nat.
From FF Require Import Sx TaskTree.
Import ListNotations.

Lemma gnode_eqb_spec a b : reflect (a = b) (gnode_eqb a b).
Proof.
  destruct a as [x|], b as [y|]; simpl; try (constructor; congruence).
  destruct (Z.eqb_spec x y); constructor; congruence.
Qed.

Lemma gnode_eq_dec (a b : gnode) : {a = b} + {a <> b}.
Proof. destruct (gnode_eqb_spec a b); [left|right]; assumption. Qed.

Lemma gmem_In a l : gmem a l = true <-> In a l.
Proof.
  unfold gmem. rewrite existsb_exists. split.
  - intros [x [Hx He]]. destruct (gnode_eqb_spec a x); [subst; auto|discriminate].
  - intros H. exists a. split; auto. destruct (gnode_eqb_spec a a); congruence.
Qed.

Lemma gmem_false a l : gmem a l = false <-> ~ In a l.
Proof. rewrite <- gmem_In. destruct (gmem a l); split; congruence. Qed.

Lemma find_node_nodup (t : tree) n :
  NoDup (gids t) -> In n t -> find_node t (gid n) = Some n.
Proof.
  unfold find_node, gids. induction t as [|x t IH]; simpl; intros Hnd H; [tauto|].
  inversion Hnd as [|? ? Hn Hnd']; subst.
  destruct H as [->|H].
  - now rewrite Z.eqb_refl.
  - destruct (Z.eqb_spec (gid x) (gid n)) as [E|_].
    + exfalso. apply Hn. rewrite E. apply in_map; assumption.
    + apply IH; assumption.
Qed.

Lemma find_node_some (t : tree) g n : find_node t g = Some n -> In n t /\ gid n = g.
Proof.
  unfold find_node. intros H. apply find_some in H as [H1 H2]. apply Z.eqb_eq in H2. auto.
Qed.

Lemma first_dup_spec l : forall seen,
  first_dup seen l = false -> NoDup l /\ forall x, In x l -> ~ In x seen.
Proof.
  induction l as [|x r IH]; intros seen H; simpl in *.
  - split; [constructor|intros ? []].
  - destruct (zmem x seen) eqn:E; [discriminate|].
    apply IH in H as [H1 H2]. split.
    + constructor; [|exact H1]. intros Hin. apply (H2 x Hin). left; reflexivity.
    + intros y [<-|Hy].
      * intros Hs. apply zmem_In in Hs. congruence.
      * intros Hs. apply (H2 y Hy). right; exact Hs.
Qed.

Lemma first_dup_complete l : forall seen,
  NoDup l -> (forall x, In x l -> ~ In x seen) -> first_dup seen l = false.
Proof.
  induction l as [|x r IH]; intros seen Hnd Hd; simpl; [reflexivity|].
  inversion Hnd as [|? ? Hx Hr]; subst.
  destruct (zmem x seen) eqn:E.
  - apply zmem_In in E. exfalso. apply (Hd x); [left; reflexivity|exact E].
  - apply IH; [exact Hr|]. intros y Hy [<-|Hs]; [contradiction|]. apply (Hd y); [right; exact Hy|exact Hs].
Qed.

Definition closed (t : tree) : Prop := forall n d, In n t -> In d (ndeps n) -> In d (gids t).

Lemma has_dangling_false t : has_dangling t = false <-> closed t.
Proof.
  unfold has_dangling, closed. rewrite <- not_true_iff_false, existsb_exists. split.
  - intros H n d Hn Hd. apply zmem_In. destruct (zmem d (gids t)) eqn:E; [reflexivity|].
    destruct H. exists n. split; [exact Hn|]. apply existsb_exists. exists d. rewrite E. auto.
  - intros H (n & Hn & E). apply existsb_exists in E as (d & Hd & E).
    rewrite (proj2 (zmem_In _ _) (H n d Hn Hd)) in E. discriminate E.
Qed.

Lemma children_spec t c p :
  In c (children t p) <->
  exists n, In n t /\ gid n = c /\ match p with None => ndeps n = [] | Some u => In u (ndeps n) end.
Proof.
  destruct p as [u|]; simpl.
  - rewrite in_flat_map. split.
    + intros (n & Hn & H). apply in_map_iff in H as (x & <- & Hx). apply filter_In in Hx as [Hx E].
      apply Z.eqb_eq in E. subst x. exists n. auto.
    + intros (n & Hn & <- & Hu). exists n. split; [exact Hn|]. apply in_map_iff. exists u.
      split; [reflexivity|]. apply filter_In. split; [exact Hu|apply Z.eqb_refl].
  - rewrite in_map_iff. split.
    + intros (n & <- & H). apply filter_In in H as [Hn E]. exists n.
      destruct (ndeps n); [auto|discriminate].
    + intros (n & Hn & <- & E). exists n. split; [reflexivity|]. apply filter_In. rewrite E. auto.
Qed.

Lemma children_in_gids t c p : In c (children t p) -> In c (gids t).
Proof. intros H. apply children_spec in H as (n & Hn & <- & _). apply in_map. exact Hn. Qed.

Section G.
  Variable t : tree.
  Hypothesis nodup : NoDup (gids t).

  Lemma deps_of_node n : In n t -> deps_of t (gid n) = ndeps n.
  Proof. intros H. unfold deps_of. now rewrite (find_node_nodup t n nodup H). Qed.

  Lemma parents_spec n p : In n t ->
    (In p (parents t (gid n)) <-> match p with None => ndeps n = [] | Some u => In u (ndeps n) end).
  Proof.
    intros Hn. unfold parents. rewrite (deps_of_node n Hn). destruct (ndeps n) as [|d ds] eqn:E.
    - destruct p; simpl; intuition discriminate.
    - rewrite in_map_iff. destruct p as [u|]; split; try discriminate.
      + intros (x & [= ->] & H). exact H.
      + intros H. exists u. auto.
      + intros (x & [=] & _).
  Qed.

  Lemma child_of_parent n p : In n t -> In p (parents t (gid n)) -> In (gid n) (children t p).
  Proof. intros Hn Hp. apply children_spec. exists n. split; [exact Hn|]. split; [reflexivity|]. apply parents_spec; assumption. Qed.

  Lemma complete_In visited v : complete t visited v = true <-> forall p, In p (parents t v) -> In p visited.
  Proof.
    unfold complete. rewrite forallb_forall. split; intros H p Hp; specialize (H p Hp); apply gmem_In; exact H.
  Qed.

  (** [level] and [bfs] together take the head of one queue, [todo ++ next], and either visit it, appending its
      children, or set it aside; the levels matter to the fuel only.  So what both steps keep, the check
      establishes. *)
  Lemma level_inv (P : list Z -> list gnode -> list Z -> Prop) :
    (forall cur q v i, P (cur :: q) v i -> complete t v cur = true ->
       P (q ++ children t (Some cur)) (Some cur :: v) (remove Z.eq_dec cur i)) ->
    (forall cur q v i, P (cur :: q) v i -> complete t v cur = false -> P q v (cur :: i)) ->
    forall todo v i next, P (todo ++ next) v i ->
    let '(v', i', n') := level t todo v i next in P n' v' i'.
  Proof.
    intros visit defer. induction todo as [|cur rest IH]; intros v i next H; simpl; [exact H|].
    destruct (complete t v cur) eqn:C; apply IH.
    - rewrite app_assoc. apply visit; assumption.
    - apply defer; assumption.
  Qed.

  Lemma bfs_inv (P : list Z -> list gnode -> list Z -> Prop) :
    (forall cur q v i, P (cur :: q) v i -> complete t v cur = true ->
       P (q ++ children t (Some cur)) (Some cur :: v) (remove Z.eq_dec cur i)) ->
    (forall cur q v i, P (cur :: q) v i -> complete t v cur = false -> P q v (cur :: i)) ->
    forall fuel todo v i v' i', P todo v i -> bfs fuel t todo v i = Some (v', i') -> P [] v' i'.
  Proof.
    intros visit defer. induction fuel as [|f IH]; intros todo v i v' i' H Hb; simpl in Hb; [discriminate|].
    destruct todo as [|c r]; [injection Hb as <- <-; exact H|].
    pose proof (level_inv P visit defer (c :: r) v i []) as HL. rewrite app_nil_r in HL. specialize (HL H).
    destruct (level t (c :: r) v i []) as [[v1 i1] n1]. eapply IH; eassumption.
  Qed.

  Fixpoint WFv (visited : list gnode) : Prop :=
    match visited with
    | [] => True
    | x :: rest => match x with Some v => forall p, In p (parents t v) -> In p rest | None => True end /\ WFv rest
    end.

  Lemma WFv_parents visited v : WFv visited -> In (Some v) visited -> forall p, In p (parents t v) -> In p visited.
  Proof.
    induction visited as [|x r IH]; [intros _ []|].
    intros [Hx W] [->|H] p Hp; right; [exact (Hx p Hp)|exact (IH W H p Hp)].
  Qed.

  Lemma complete_new visited cur v :
    complete t (Some cur :: visited) v = true ->
    complete t visited v = true \/ In (Some cur) (parents t v).
  Proof.
    intros H.
    destruct (in_dec gnode_eq_dec (Some cur) (parents t v)) as [Hin|Hnin]; [right; exact Hin|left].
    apply complete_In. intros p Hp. pose proof (proj1 (complete_In _ _) H p Hp) as [E|Hv]; [|exact Hv].
    subst p. contradiction.
  Qed.

  (** What the check keeps: the visited list is in dependency order and holds the root; what was set aside is
      a task not visited; the queue holds tasks, among them every unvisited task whose parents are all visited. *)
  Record Inv (queue : list Z) (visited : list gnode) (inc : list Z) : Prop := {
    inv_wf : WFv visited;
    inv_root : In None visited;
    inv_inc : forall x, In x inc -> In x (gids t) /\ ~ In (Some x) visited;
    inv_queue : forall x, In x queue -> In x (gids t);
    inv_pending : forall n, In n t -> ~ In (Some (gid n)) visited ->
                    complete t visited (gid n) = true -> In (gid n) queue }.

  Lemma inv_visit cur q v i : Inv (cur :: q) v i -> complete t v cur = true ->
    Inv (q ++ children t (Some cur)) (Some cur :: v) (remove Z.eq_dec cur i).
  Proof.
    intros [W R I Q HP] C. split.
    - exact (conj (proj1 (complete_In v cur) C) W).
    - right; exact R.
    - intros x Hx. apply in_remove in Hx as [Hx Hne]. destruct (I x Hx) as [Hg Hv].
      split; [exact Hg|]. intros [E|Hv']; [congruence|contradiction].
    - intros x Hx. apply in_app_or in Hx as [Hx|Hx]; [apply Q; right; exact Hx|eapply children_in_gids; exact Hx].
    - intros n Hn Hnv Hc. apply in_or_app.
      destruct (complete_new _ _ _ Hc) as [Hold|Hpar]; [left|right; exact (child_of_parent n (Some cur) Hn Hpar)].
      destruct (HP n Hn (fun H => Hnv (or_intror H)) Hold) as [E|H]; [|exact H].
      exfalso. apply Hnv. left. congruence.
  Qed.

  Lemma inv_defer cur q v i : Inv (cur :: q) v i -> complete t v cur = false -> Inv q v (cur :: i).
  Proof.
    intros [W R I Q HP] C. split; auto.
    - intros x [<-|Hx]; [|exact (I x Hx)]. split; [apply Q; left; reflexivity|].
      intros Hv. rewrite (proj2 (complete_In v cur) (WFv_parents v cur W Hv)) in C. discriminate.
    - intros x Hx. apply Q. right; exact Hx.
    - intros n Hn Hnv Hc. destruct (HP n Hn Hnv Hc) as [E|H]; [congruence|exact H].
  Qed.

  Lemma cycle_check_inv fuel v i : cycle_check fuel t = Some (v, i) -> Inv [] v i.
  Proof.
    apply (bfs_inv Inv inv_visit inv_defer). split.
    - exact (conj Logic.I Logic.I).
    - left; reflexivity.
    - intros x [].
    - intros x. apply children_in_gids.
    - intros n Hn _ Hc. apply child_of_parent; [exact Hn|]. apply parents_spec; [exact Hn|].
      destruct (ndeps n) as [|d ds] eqn:E; [reflexivity|].
      assert (Hp : In (Some d) (parents t (gid n))) by (apply parents_spec; [exact Hn|rewrite E; left; reflexivity]).
      destruct (proj1 (complete_In _ _) Hc _ Hp) as [X|[]]. discriminate.
  Qed.

  (** rank of a node = 1 + number of entries after its LAST occurrence *)
  Fixpoint rk (l : list gnode) (x : gnode) : nat :=
    match l with
    | [] => 0
    | y :: r => if gmem x r then rk r x else S (length r)
    end.

  Lemma rk_le l x : rk l x <= length l.
  Proof. induction l as [|y r IH]; simpl; [lia|]. destruct (gmem x r); lia. Qed.

  Lemma WFv_rk visited : WFv visited ->
    forall v p, In (Some v) visited -> In p (parents t v) -> rk visited p < rk visited (Some v).
  Proof.
    induction visited as [|y r IH]; intros W v p Hv Hp; [destruct Hv|].
    destruct W as [Hy Wr]. simpl. destruct (gmem (Some v) r) eqn:G.
    - apply gmem_In in G. rewrite (proj2 (gmem_In p r) (WFv_parents r v Wr G p Hp)). apply IH; assumption.
    - apply gmem_false in G. destruct Hv as [->|Hv]; [|contradiction].
      rewrite (proj2 (gmem_In p r) (Hy p Hp)). pose proof (rk_le r p). lia.
  Qed.

  Definition ranked (t : tree) : Prop :=
    exists rank : Z -> nat, forall n d, In n t -> In d (ndeps n) -> rank d < rank (gid n).

  Lemma WFv_ranked visited :
    WFv visited -> visited_all t visited = true -> ranked t.
  Proof.
    intros W A. exists (fun g => rk visited (Some g)). intros n d Hn Hd.
    unfold visited_all in A. rewrite forallb_forall in A. specialize (A n Hn). apply gmem_In in A.
    apply (WFv_rk visited W (gid n) (Some d) A). apply parents_spec; assumption.
  Qed.

  Hypothesis Hclosed : closed t.

  Lemma ranked_all_visited fuel v' i' :
    ranked t -> cycle_check fuel t = Some (v', i') -> forall n, In n t -> In (Some (gid n)) v'.
  Proof.
    intros [rank Hr] Hc. apply cycle_check_inv in Hc as [_ Hroot _ _ HP].
    intros n. induction n as [n IH] using (induction_ltof1 _ (fun n => rank (gid n))). intros Hn.
    destruct (in_dec gnode_eq_dec (Some (gid n)) v') as [Hin|Hnin]; [exact Hin|].
    destruct (HP n Hn Hnin). apply complete_In. intros p Hp. apply (parents_spec n p Hn) in Hp.
    destruct p as [u|]; [|exact Hroot].
    destruct (proj1 (in_map_iff gid t u) (Hclosed n u Hn Hp)) as [nu [<- Hnu]].
    exact (IH nu (Hr n (gid nu) Hn Hp) Hnu).
  Qed.

  Lemma ranked_no_incomplete fuel v' i' :
    ranked t -> cycle_check fuel t = Some (v', i') -> i' = [].
  Proof.
    intros R Hc. pose proof (ranked_all_visited fuel v' i' R Hc) as Hall.
    apply cycle_check_inv in Hc as [_ _ I _ _].
    destruct i' as [|x r]; [reflexivity|]. exfalso.
    destruct (I x (or_introl eq_refl)) as [Hx Hv].
    apply in_map_iff in Hx as [n [<- Hn]]. exact (Hv (Hall n Hn)).
  Qed.
End G.

Definition valid_dag (t : tree) : Prop :=
  NoDup (gids t) /\ closed t /\ t <> [] /\ ranked t.

(** with no start node the check ends at once, having visited the root alone *)
Lemma ranked_has_start t : NoDup (gids t) -> closed t -> t <> [] -> ranked t -> children t None <> [].
Proof.
  intros ND CL NE R E. destruct t as [|n0 t']; [congruence|].
  pose proof (ranked_all_visited _ ND CL 1 [None] [] R) as H. unfold cycle_check in H. rewrite E in H.
  destruct (H eq_refl n0 (or_introl eq_refl)) as [X|[]]. discriminate X.
Qed.

Theorem build_accept_sound fuel t : build_gen true fuel t = None -> valid_dag t.
Proof.
  unfold build_gen. intros H.
  destruct (first_dup [] (gids t)) eqn:Hd; [discriminate|].
  destruct (has_dangling t) eqn:Hg; [discriminate|].
  destruct (children t None) as [|c0 cs] eqn:Hc; [discriminate|].
  destruct (cycle_check fuel t) as [[visited inc]|] eqn:Hb; [|discriminate].
  destruct inc; [|discriminate]. simpl in H.
  destruct (visited_all t visited) eqn:Ha; [|discriminate].
  apply first_dup_spec in Hd as [ND _]. apply has_dangling_false in Hg.
  repeat split; auto.
  - intros ->. discriminate.
  - eapply WFv_ranked; [exact ND| |exact Ha]. exact (inv_wf _ _ _ _ (cycle_check_inv t ND fuel _ _ Hb)).
Qed.

Theorem build_accept_complete fuel t :
  valid_dag t -> cycle_check fuel t <> None -> build_gen true fuel t = None.
Proof.
  intros (ND & CL & NE & R) Hf. unfold build_gen.
  rewrite (first_dup_complete (gids t) [] ND (fun _ _ F => F)).
  rewrite (proj2 (has_dangling_false t) CL).
  pose proof (ranked_has_start t ND CL NE R) as Hs.
  destruct (children t None) as [|c0 cs] eqn:Hc; [congruence|]. rewrite <- Hc in *.
  destruct (cycle_check fuel t) as [[visited inc]|] eqn:Hb; [|congruence].
  rewrite (ranked_no_incomplete t ND CL fuel visited inc R Hb).
  assert (A : visited_all t visited = true).
  { unfold visited_all. apply forallb_forall. intros n Hn. apply gmem_In.
    eapply ranked_all_visited; eauto. }
  rewrite A. reflexivity.
Qed.

Inductive dep_path (t : tree) : Z -> Z -> Prop :=
| dp_step n d : In n t -> In d (ndeps n) -> dep_path t (gid n) d
| dp_trans a b c : dep_path t a b -> dep_path t b c -> dep_path t a c.

(** The code at the pinned commit accepted a list with a two-node cycle. *)
Definition rootless_cycle_witness : tree :=
  [mkNode 1 1 [2%Z] TInit; mkNode 2 2 [1%Z] TInit; mkNode 3 3 [] TInit].

Theorem unfixed_accepts_cycle :
  build_root_unfixed rootless_cycle_witness = None /\ dep_path rootless_cycle_witness 1%Z 1%Z.
Proof.
  split; [vm_compute; reflexivity|].
  apply (dp_trans _ 1%Z 2%Z 1%Z).
  - apply (dp_step rootless_cycle_witness (mkNode 1 1 [2%Z] TInit) 2%Z); simpl; auto.
  - apply (dp_step rootless_cycle_witness (mkNode 2 2 [1%Z] TInit) 1%Z); simpl; auto.
Qed.

Definition diamond : tree :=
  [mkNode 1 1 [] TInit; mkNode 2 2 [1%Z] TInit; mkNode 3 3 [1%Z] TInit; mkNode 4 4 [2%Z; 3%Z] TInit].
Example diamond_accepted : build_root diamond = None.
Proof. vm_compute. reflexivity. Qed.

Lemma executable_spec t g :
  executable t g = true <->
  executable_st (status_of t g) = true /\ forall p, In p (parents t g) -> gnode_ok t p = true.
Proof. unfold executable. rewrite andb_true_iff, forallb_forall. reflexivity. Qed.

Lemma executable_ids_In t l v : executable_ids t = Some l -> In v l -> executable t v = true.
Proof.
  unfold executable_ids. destruct (walk t (fun _ => false) (walk_fuel t)) as [[seq st]|]; [|discriminate].
  intros [= <-] Hv. apply filter_In in Hv. apply Hv.
Qed.

Theorem executable_ids_status t l v :
  executable_ids t = Some l -> In v l -> executable_st (status_of t v) = true.
Proof. intros H Hv. apply executable_spec, (executable_ids_In t l v H Hv). Qed.

(** [s <> TInit]: anything but a retry that went back to init *)
Lemma next_ids_spec t g s t' ids :
  next_ids t g s = Some (t', ids, true) -> s <> TInit ->
  t' = set_status t g s /\
  ids = if can_exec_child_st s then filter (executable t') (children t' (Some g)) else [].
Proof.
  unfold next_ids. destruct (walk t (Z.eqb g) (walk_fuel t)) as [[seq [|]]|]; try discriminate.
  destruct s; try congruence; intros [= <- <-] _; split; reflexivity.
Qed.

Theorem next_ids_children_done t g s t' ids v p :
  next_ids t g s = Some (t', ids, true) -> s <> TInit ->
  In v ids -> In p (parents t' v) -> gnode_ok t' p = true.
Proof.
  intros H Hs Hv. destruct (next_ids_spec t g s t' ids H Hs) as [_ ->].
  destruct (can_exec_child_st s); [|destruct Hv]. apply filter_In in Hv. apply executable_spec, Hv.
Qed.

Theorem next_ids_unfinished_none t g s t' ids :
  next_ids t g s = Some (t', ids, true) -> s <> TInit -> can_exec_child_st s = false -> ids = [].
Proof. intros H Hs Hc. destruct (next_ids_spec t g s t' ids H Hs) as [_ ->]. rewrite Hc. reflexivity. Qed.

Definition witnessed (t : tree) (a : tree_status * Z) : Prop :=
  match fst a with
  | TrFailed => status_of t (snd a) = TFailed \/ status_of t (snd a) = TCanceled
  | TrBlocked => status_of t (snd a) = TBlocked
  | TrRunning => is_active_st (status_of t (snd a)) = true
  | TrSuccess => True
  end.

Lemma last_verdict_witnessed t seq : forall acc, witnessed t acc -> witnessed t (last_verdict t seq acc).
Proof.
  induction seq as [|x seq IH]; intros acc H; simpl; [exact H|].
  destruct (status_of t x) eqn:E; try apply IH; try exact H; unfold witnessed; simpl; rewrite E; auto.
Qed.

Theorem compute_status_witness t a : compute_status t = Some a -> witnessed t a.
Proof.
  unfold compute_status. destruct (walk t _ (walk_fuel t)) as [[seq st]|]; [|discriminate].
  intros [= <-]. apply last_verdict_witnessed. exact Logic.I.
Qed.

(** An accepted task list satisfies the hypotheses of the engine theorems (EngineSettle), with the task ids as
    [tasks] and the dependency lists as [deps]: Props/C16.v draws the end-to-end consequence. *)
Lemma deps_of_in (t : tree) x d : In d (deps_of t x) -> exists n, In n t /\ gid n = x /\ In d (ndeps n).
Proof.
  unfold deps_of. destruct (find_node t x) as [n|] eqn:E; [|intros []].
  intros Hd. destruct (find_node_some t x n E) as (A & B). exists n. repeat split; assumption.
Qed.

Theorem valid_dag_engine_hyps (t : tree) : valid_dag t ->
  NoDup (gids t) /\
  (exists rank : Z -> nat, forall x d, In d (deps_of t x) -> (rank d < rank x)%nat) /\
  (forall x d, In x (gids t) -> In d (deps_of t x) -> In d (gids t)).
Proof.
  intros (ND & CL & _ & (rank & Hr)). repeat split.
  - exact ND.
  - exists rank. intros x d Hd. destruct (deps_of_in t x d Hd) as (n & A & B & C). subst x. apply (Hr n d A C).
  - intros x d _ Hd. destruct (deps_of_in t x d Hd) as (n & A & B & C). apply (CL n d A C).
Qed.
