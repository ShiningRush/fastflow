(** The dictionary of ShareData as a finite map: [d_get] after [d_set], and after the filter that [d_set] and
    [d_del] are made of. *)
From Coq Require Import List ZArith Bool Arith Lia.
From FF Require Import Sx StoreModel StoreCheck PreCheck ShareData.
Import ListNotations.
Local Open Scope Z_scope.

Lemma lookup_filter_other (d : dict) k k' :
  k' <> k -> kv_lookup (filter (fun p => negb (Z.eqb (fst p) k)) d) k' = kv_lookup d k'.
Proof.
  intros Hne. unfold kv_lookup. induction d as [|[a b] r IH]; simpl; [reflexivity|].
  destruct (Z.eqb_spec a k); simpl.
  - subst a. destruct (Z.eqb_spec k k'); [congruence|]. exact IH.
  - destruct (Z.eqb a k'); [reflexivity|exact IH].
Qed.

Lemma lookup_filter_same (d : dict) k :
  kv_lookup (filter (fun p => negb (Z.eqb (fst p) k)) d) k = None.
Proof.
  unfold kv_lookup. induction d as [|[a b] r IH]; simpl; [reflexivity|].
  destruct (Z.eqb_spec a k); simpl; [exact IH|].
  destruct (Z.eqb_spec a k); [contradiction|exact IH].
Qed.

Lemma get_set_same d k v : d_get (d_set d k v) k = Some v.
Proof. unfold d_get, d_set, kv_lookup. simpl. rewrite Z.eqb_refl. reflexivity. Qed.

Lemma get_set_other d k v k' : k' <> k -> d_get (d_set d k v) k' = d_get d k'.
Proof.
  intros H. unfold d_get, d_set. unfold kv_lookup at 1. simpl.
  destruct (Z.eqb_spec k k'); [congruence|]. fold (kv_lookup (filter (fun p => negb (Z.eqb (fst p) k)) d) k').
  apply lookup_filter_other. exact H.
Qed.

Lemma d_set_keeps d k v x : d_get d x <> None -> d_get (d_set d k v) x <> None.
Proof.
  intros H. destruct (Z.eq_dec x k) as [->|Hne]; [rewrite get_set_same; discriminate|].
  rewrite get_set_other by exact Hne. exact H.
Qed.

Example set_example : mem (sd_set true (mkSd [(1, 5)] [(1, 5)]) 1 7 false) = [(1, 5)].
Proof. reflexivity. Qed.
