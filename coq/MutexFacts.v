(** C10: the lock invariant of the repaired MongoMutex and its consequences. *)
From Coq Require Import List ZArith Bool Lia Arith.
From FF Require Import Sx Lts Mutex.
From FF Require Keeper.
Import ListNotations.
Local Open Scope Z_scope.

(* [hget] and [hset] are Keeper's total map at default [h0] *)
Lemma hget_hset_same l k v : hget (hset l k v) k = v.
Proof. exact (Keeper.get_set_same h0 l k v). Qed.
Lemma hget_nil k : hget [] k = h0.
Proof. exact (Keeper.get_nil h0 k). Qed.
Lemma hget_hset_other l k k' v : k <> k' -> hget (hset l k v) k' = hget l k'.
Proof. exact (Keeper.get_set_other h0 l k k' v). Qed.
Lemma hget_map f l k : f h0 = h0 -> hget (map f l) k = f (hget l k).
Proof.
  intros Hf. revert k; induction l as [|x t IH]; intros [|k]; simpl; auto.
Qed.

Lemma H_setH_same s h v : H (setH s h v) h = v.
Proof. apply hget_hset_same. Qed.
Lemma H_setH s h v h' : H (setH s h v) h' = if Nat.eqb h h' then v else H s h'.
Proof. exact (Keeper.get_set h0 (m_hs s) h v h'). Qed.
Lemma H_setDoc s d h : H (setDoc s d) h = H s h.  Proof. reflexivity. Qed.

Definition rel1 (e : Z) (x : hst) : hst :=
  match h_detail x with
  | Some (e', _) => if Z.eqb e' e then {| h_detail := h_detail x; h_pc := h_pc x; h_holds := false; h_ident := h_ident x |} else x
  | None => x end.
Lemma H_release s e h : H (release_all s e) h = rel1 e (H s h).
Proof. unfold H, release_all; simpl. apply (hget_map (rel1 e)). reflexivity. Qed.

(** the invariant, handle by handle: what it asks of a handle's state [x] at time [t] under document [doc] *)
Definition clean_at (t : Z) (p : mpc) (x : hst) : Prop :=
  match p with
  | MFindNext _ _ _ | MInsertNext _ _ _ _ | MWait _ _ => h_detail x = None /\ h_holds x = false
  | MCasNext old _ _ _ _ => h_detail x = None /\ h_holds x = false /\ old < t
  | _ => True
  end.
Definition busy_clean (t : Z) (x : hst) : Prop := clean_at t (h_pc x) x.

(** the second disjunct: handles that share a non-empty reentrant identity ([<> 0]) are one holder, and any of
    them adopts the document another wrote *)
Definition holder_ok (t : Z) (doc : option mdoc) (h : nat) (x : hst) : Prop :=
  h_holds x = true ->
  exists e i, h_detail x = Some (e, i) /\
    (t < e -> exists d, doc = Some d /\ d_exp d = e /\ d_id d = h_ident x /\ (d_owner d = h \/ h_ident x <> 0)).

Definition MInv (s : mst) : Prop :=
  forall h, busy_clean (m_now s) (H s h) /\ holder_ok (m_now s) (m_doc s) h (H s h).

Lemma MInv_init : MInv minit.
Proof. intros h. unfold H, minit; simpl. split; [exact Logic.I|intros X; discriminate]. Qed.

Lemma busy_at s h p : MInv s -> h_pc (H s h) = p -> clean_at (m_now s) p (H s h).
Proof. intros HI <-. exact (proj1 (HI h)). Qed.

Lemma MInv_tick s d : MInv s -> 0 <= d -> MInv {| m_now := m_now s + d; m_doc := m_doc s; m_hs := m_hs s |}.
Proof.
  intros HI Hd h. destruct (HI h) as [Hb Ho]. split.
  - revert Hb. unfold busy_clean, clean_at, H; simpl. destruct (h_pc (hget (m_hs s) h)); trivial.
    intros (A & B & C). repeat split; trivial. lia.
  - intros Hh. destruct (Ho Hh) as (e & i & He & Hdoc). exists e, i. split; [exact He|].
    intros L. apply Hdoc. simpl in L. lia.
Qed.

Lemma MInv_setH s h v : MInv s -> busy_clean (m_now s) v -> holder_ok (m_now s) (m_doc s) h v -> MInv (setH s h v).
Proof. intros HI Hb Ho h'. rewrite H_setH. destruct (Nat.eqb_spec h h') as [<-|_]; [split; assumption|apply HI]. Qed.

Lemma MInv_rest s h p : MInv s -> match p with MIdle | MRet _ => True | _ => False end ->
  MInv (setH s h {| h_detail := h_detail (H s h); h_pc := p; h_holds := h_holds (H s h); h_ident := h_ident (H s h) |}).
Proof.
  intros HI Hp. apply MInv_setH; [exact HI| |exact (proj2 (HI h))]. unfold busy_clean, clean_at; simpl. destruct p; tauto.
Qed.
Lemma MInv_spin s h p i : MInv s -> match p with MCasNext old _ _ _ _ => old < m_now s | _ => True end ->
  MInv (setH s h {| h_detail := None; h_pc := p; h_holds := false; h_ident := i |}).
Proof.
  intros HI Hp. apply MInv_setH; [exact HI| |intros X; discriminate]. unfold busy_clean, clean_at; simpl. destruct p; tauto.
Qed.

Lemma MInv_acquired s h e i ci : MInv s ->
  (m_now s < e -> exists d, m_doc s = Some d /\ d_exp d = e /\ d_id d = ci /\ (d_owner d = h \/ ci <> 0)) ->
  MInv (acquired s h e i ci).
Proof. intros HI Hd. apply MInv_setH; [exact HI|exact Logic.I|]. intros _. exists e, i. split; [reflexivity|exact Hd]. Qed.

Lemma MInv_after_spin_err s h first : MInv s -> MInv (after_spin_err true s h first).
Proof. intros HI. unfold after_spin_err. rewrite orb_true_r. apply MInv_rest; [exact HI|exact Logic.I]. Qed.

Lemma MInv_after_spin_noacq s h ttl ident :
  MInv s -> h_detail (H s h) = None -> h_holds (H s h) = false -> MInv (after_spin_noacq s h ttl ident).
Proof. intros HI Hd Hh. unfold after_spin_noacq. rewrite Hd, Hh. apply MInv_spin; [exact HI|exact Logic.I]. Qed.

Definition free (s : mst) : Prop := match m_doc s with Some d => d_exp d < m_now s | None => True end.

Lemma free_no_holder s h : MInv s -> free s -> h_holds (H s h) = true ->
  exists e i, h_detail (H s h) = Some (e, i) /\ e <= m_now s.
Proof.
  intros HI Hf Hh. destruct (proj2 (HI h) Hh) as (e & i & He & Hdoc). exists e, i. split; [exact He|].
  destruct (Z.lt_ge_cases (m_now s) e) as [L|G]; [|lia].
  destruct (Hdoc L) as (d & Hd & He' & _). unfold free in Hf. rewrite Hd in Hf. lia.
Qed.

Lemma MInv_setDoc s d : MInv s -> free s -> MInv (setDoc s d).
Proof.
  intros HI Hf h. split; [exact (proj1 (HI h))|]. intros Hh.
  destruct (free_no_holder s h HI Hf Hh) as (e & i & He & Hle). exists e, i. split; [exact He|]. simpl. lia.
Qed.

Lemma MInv_claimed s h e i ci : MInv s -> free s ->
  MInv (acquired (setDoc s (Some {| d_exp := e; d_id := ci; d_owner := h |})) h e i ci).
Proof.
  intros HI Hf. apply MInv_acquired; [apply MInv_setDoc; assumption|]. intros _. eexists. split; [reflexivity|]. simpl. auto.
Qed.

Lemma MInv_release s d : MInv s -> m_doc s = Some d -> MInv (release_all (setDoc s None) (d_exp d)).
Proof.
  intros HI Hd h. rewrite H_release, H_setDoc. destruct (HI h) as [Hb Ho]. unfold rel1.
  destruct (h_detail (H s h)) as [[e' i']|] eqn:Hd'; [destruct (Z.eqb_spec e' (d_exp d)) as [He'|He']|].
  - split; [|intros X; discriminate]. unfold busy_clean in *; simpl. destruct (h_pc (H s h)); trivial; destruct Hb; congruence.
  - split; [exact Hb|]. intros Hh. destruct (Ho Hh) as (e0 & i0 & He0 & Hdoc). exists e0, i0. split; [exact He0|].
    intros L. destruct (Hdoc L) as (d0 & Hd0 & Hx & _). congruence.
  - split; [exact Hb|]. intros Hh. destruct (Ho Hh) as (e0 & i0 & He0 & _). congruence.
Qed.

Lemma MInv_step s l s' : MInv s -> mstep true s l = Some s' -> MInv s'.
Proof.
  intros HI Hst. destruct l; simpl in Hst.
  - (* MTick *)
    destruct (Z.leb_spec 0 d) as [Hd|]; [|discriminate]. injection Hst as <-. apply MInv_tick; assumption.
  - (* MSweep *)
    destruct (m_doc s) as [d|] eqn:Hd; [|discriminate].
    destruct (Z.ltb_spec (d_exp d + 1000) (m_now s)) as [Hx|]; [|discriminate]. injection Hst as <-.
    apply MInv_setDoc; [exact HI|]. unfold free. rewrite Hd. lia.
  - (* LockCall *)
    destruct (h_pc (H s h)); try discriminate. injection Hst as <-. apply MInv_spin; [exact HI|exact Logic.I].
  - (* FindOp *)
    destruct (h_pc (H s h)) eqn:Hpc; try discriminate.
    destruct (busy_at s h _ HI Hpc) as [Hdn Hhf].
    destruct r; [|injection Hst as <-; apply MInv_after_spin_err, HI ..].
    destruct (m_doc s) as [d|] eqn:Hd; [destruct (Z.ltb_spec (d_exp d) (m_now s)) as [Hx|Hx]|].
    + injection Hst as <-. rewrite Hdn, Hhf. apply MInv_spin; assumption.
    + destruct (negb (ident =? 0) && (d_id d =? ident)) eqn:Hid; injection Hst as <-.
      * (* the document carries the caller's own identity: adopt it *)
        apply andb_true_iff in Hid as [Hi1 Hi2]. apply negb_true_iff, Z.eqb_neq in Hi1. apply Z.eqb_eq in Hi2.
        apply MInv_acquired; [exact HI|]. intros _. exists d. auto.
      * apply MInv_after_spin_noacq; assumption.
    + injection Hst as <-. rewrite Hdn, Hhf. apply MInv_spin; [exact HI|exact Logic.I].
  - (* InsertOp: writes only when there is no document *)
    destruct (h_pc (H s h)) eqn:Hpc; try discriminate.
    destruct (busy_at s h _ HI Hpc) as [Hdn Hhf].
    destruct (m_doc s) as [d|] eqn:Hd.
    + destruct r; injection Hst as <-; [apply MInv_after_spin_noacq|apply MInv_after_spin_err ..]; assumption.
    + assert (Hf : free s) by (unfold free; rewrite Hd; exact Logic.I).
      destruct r; injection Hst as <-; [apply MInv_claimed|apply MInv_after_spin_err ..]; auto using MInv_setDoc.
  - (* CasOp: writes only over the expired document it read *)
    destruct (h_pc (H s h)) eqn:Hpc; try discriminate.
    destruct (busy_at s h _ HI Hpc) as (Hdn & Hhf & Hold).
    destruct (m_doc s) as [d|] eqn:Hd; [destruct (Z.eqb_spec (d_exp d) old) as [Hm|Hm]|].
    2-3: destruct r; injection Hst as <-; [apply MInv_after_spin_noacq|apply MInv_after_spin_err ..]; assumption.
    assert (Hf : free s) by (unfold free; rewrite Hd; lia).
    destruct r; injection Hst as <-; [apply MInv_claimed|apply MInv_after_spin_err ..]; auto using MInv_setDoc.
  - (* SpinTick *)
    destruct (h_pc (H s h)) eqn:Hpc; try discriminate. injection Hst as <-.
    destruct (busy_at s h _ HI Hpc) as [Hdn Hhf].
    rewrite Hdn, Hhf. apply MInv_spin; [exact HI|exact Logic.I].
  - (* CtxDone *)
    destruct (h_pc (H s h)); try discriminate. injection Hst as <-. apply MInv_rest; [exact HI|exact Logic.I].
  - (* LockRet *)
    destruct (h_pc (H s h)); try discriminate.
    destruct (code0 =? code); [|discriminate]. injection Hst as <-. apply MInv_rest; [exact HI|exact Logic.I].
  - (* UnlockOp *)
    destruct (h_pc (H s h)); try discriminate.
    destruct (h_detail (H s h)) as [[e i]|] eqn:Hdt; [|discriminate]. rewrite <- Hdt in Hst.
    destruct r; [|injection Hst as <-; apply MInv_rest; [exact HI|exact Logic.I]|discriminate].
    destruct (m_doc s) as [d|] eqn:Hd; [destruct (Z.eqb_spec (d_exp d) e) as [Hm|Hm]|]; injection Hst as <-.
    2-3: apply MInv_rest; [exact HI|exact Logic.I].
    subst e. apply MInv_setH; [apply MInv_release; assumption|exact Logic.I|intros X; discriminate].
  - (* UnlockRet *)
    destruct (h_pc (H s h)); try discriminate.
    + destruct (h_detail (H s h)); [discriminate|]. destruct (code =? 4); [|discriminate]. injection Hst as <-. exact HI.
    + destruct (code0 =? code); [|discriminate]. injection Hst as <-. apply MInv_rest; [exact HI|exact Logic.I].
Qed.

Theorem MInv_reachable ls s : mrun true minit ls = Some s -> MInv s.
Proof. exact (run_inv (mstep true) MInv MInv_step ls _ _ MInv_init). Qed.

(** a handle holds the key: Lock returned nil, the lock was not released since, and the expiry it
    remembers has not been reached *)
Definition holds_now (s : mst) (h : nat) : Prop :=
  h_holds (H s h) = true /\ exists e i, h_detail (H s h) = Some (e, i) /\ m_now s < e.

(** what exclusion and honesty both come from *)
Theorem holder_sees_doc ls s h : mrun true minit ls = Some s -> holds_now s h ->
  exists d, m_doc s = Some d /\ d_id d = h_ident (H s h) /\ (d_owner d = h \/ h_ident (H s h) <> 0).
Proof.
  intros Hr [Hh (e & i & Hd & L)]. destruct (proj2 (MInv_reachable ls s Hr h) Hh) as (e' & i' & Hd' & Hdoc).
  rewrite Hd in Hd'. injection Hd' as <- <-. destruct (Hdoc L) as (d & A & _ & B). exists d. auto.
Qed.

Example exclusion_premises_met :
  exists s, mrun true minit [LockCall 0 5000 7; FindOp 0 MOk; InsertOp 0 MOk; LockRet 0 0;
                             LockCall 1 5000 7; FindOp 1 MOk; LockRet 1 0] = Some s
            /\ h_holds (H s 0) = true /\ h_holds (H s 1) = true /\ h_ident (H s 0) = 7 /\ h_ident (H s 1) = 7.
Proof. eexists; split; [vm_compute; reflexivity|]. repeat split. Qed.
