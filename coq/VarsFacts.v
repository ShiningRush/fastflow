From Coq Require Import List ZArith Bool Arith.
From FF Require Import Sx StoreModel StoreCheck PreCheck Vars.
Import ListNotations.
Local Open Scope Z_scope.

(** induction on parameter trees with the hypotheses for the elements of the nested lists, which [pv_ind] lacks *)
Section PvInd.
  Variable P : pv -> Prop.
  Hypothesis Hstr : forall t, P (PStr t).
  Hypothesis Hint : forall z, P (PInt z).
  Hypothesis Hbool : forall b, P (PBool b).
  Hypothesis Hnil : P PNil.
  Hypothesis Hmap : forall l, Forall (fun kv => P (snd kv)) l -> P (PMap l).
  Hypothesis Hlist : forall l, Forall P l -> P (PList l).
  Fixpoint pv_ind' (p : pv) : P p :=
    match p with
    | PStr t => Hstr t | PInt z => Hint z | PBool b => Hbool b | PNil => Hnil
    | PMap l => Hmap l ((fix go (l : list (Z * pv)) : Forall (fun kv => P (snd kv)) l :=
                           match l with
                           | [] => Forall_nil _
                           | (k, v) :: r => Forall_cons (k, v) (pv_ind' v) (go r)
                           end) l)
    | PList l => Hlist l ((fix go (l : list pv) : Forall P l :=
                             match l with
                             | [] => Forall_nil _
                             | v :: r => Forall_cons v (pv_ind' v) (go r)
                             end) l)
    end.
End PvInd.

Example render_example :
  render [(1, 9)] (PMap [(5, PList [PStr [TLit 3; THole 1]; PInt 4]); (6, PStr [THole 2])])
  = PMap [(5, PList [PStr [TLit 3; TVal 9]; PInt 4]); (6, PStr [THole 2])].
Proof. reflexivity. Qed.
