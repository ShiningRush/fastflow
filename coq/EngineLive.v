(** Engine: between two interventions of the operator, the watchdog or a crash the engine performs
    only finitely many steps.  A measure (a weight per task, read off its persisted status and the place of its
    token, plus a term for a pending re-initialisation) strictly decreases with every step of the engine
    itself in every state of the restricted system.  With [engine_not_stuck] (a step of the engine is always
    enabled off quiescence) and [settled]: under weak fairness every history of the restricted system in
    which the environment eventually stays away reaches a quiescent state, and that state is settled.
    Every step of the restricted system is a step of the validated one ([quiet_step_validated]). *)
From Coq Require Import List ZArith Bool Lia.
From FF Require Import Lts Engine EngineFacts EngineSettle.
Import ListNotations.
Local Open Scope Z_scope.

Definition has (l : list (Z * est)) (t : Z) : bool := existsb (fun p => Z.eqb (fst p) t) l.

(** the weight of a task: a numbering of the places of its token (arguments: the run; an event is queued; a delivery
    is under way; a pusher holds it; the persisted status) that falls along every edge of the token graph
    ([hop_weight]).  From no token over pusher, delivery, run and event to no token a plain attempt goes
    40 38 36 34 32 30 28 26 24 0; a continued one starts 48 46 44 42 and joins at 32; a retried one goes 60 58 56 54,
    52 once the retry hook is done, 50 as its event, and is pushed again as init: 38.  'ending' with no token (left by
    a crash) weighs 39, not less than the 38 it has once the rebuild has pushed it again ([tw5_pushq_le]). *)
Definition tw5 (r : rpc) (e p q : bool) (st : est) : nat :=
  match r with
  | RQueued SRetrying => 54 | RQueued SContinue => 42 | RQueued _ => 34
  | RRunning => 32 | RInMain => 30 | REnding => 28
  | RDone SInit => 52 | RDone _ => 26
  | RNone =>
      if e then (match st with SInit => 50 | _ => 24 end)
      else if p then (match st with SRetrying => 56 | SContinue => 44 | _ => 36 end)
      else if q then (match st with SRetrying => 58 | SContinue => 46 | _ => 38 end)
      else (match st with SRetrying => 60 | SContinue => 48 | SInit => 40 | SEnding => 39 | _ => 0 end)
  end%nat.

Definition tw (s : eng) (t : Z) : nat := tw5 (runs s t) (has (evq s) t) (has (pend s) t) (has (pushq s) t) (store s t).
Definition pw (p : phase) : nat := match p with PDown => 2 | PInit => 1 | _ => 0 end%nat.

Fixpoint sumw (f : Z -> nat) (l : list Z) : nat := match l with [] => 0 | x :: r => f x + sumw f r end%nat.

Lemma sumw_le f g l : (forall x, In x l -> (g x <= f x)%nat) -> (sumw g l <= sumw f l)%nat.
Proof.
  induction l as [|x r IH]; cbn; intros H; [lia|].
  pose proof (H x (or_introl eq_refl)). assert (sumw g r <= sumw f r)%nat by (apply IH; intros y Hy; apply H; right; exact Hy). lia.
Qed.

Lemma sumw_lt f g l x0 : (forall x, In x l -> (g x <= f x)%nat) -> In x0 l -> (g x0 < f x0)%nat -> (sumw g l < sumw f l)%nat.
Proof.
  induction l as [|x r IH]; cbn; intros H Hin Hlt; [contradiction|].
  pose proof (H x (or_introl eq_refl)) as Hx.
  assert (Hr : forall y, In y r -> (g y <= f y)%nat) by (intros y Hy; apply H; right; exact Hy).
  destruct Hin as [->|Hin].
  - pose proof (sumw_le f g r Hr). lia.
  - pose proof (IH Hr Hin Hlt). lia.
Qed.

Lemma has_sts l x : has l x = match sts x l with [] => false | _ => true end.
Proof.
  unfold has. induction l as [|(t, v) r IH]; [reflexivity|]. rewrite sts_cons. cbn. destruct (Z.eqb t x); [reflexivity|exact IH].
Qed.

Lemma has_remove1_same p l l' : remove1 p l = Some l' -> NoDup (map fst l) -> has l' (fst p) = false.
Proof.
  destruct p as (t, v). intros Hr Hnd. cbn [fst]. rewrite has_sts. destruct (short_cases _ (proj1 (nodup_sts l) Hnd t)) as [E|(w & E)].
  - apply remove1_mem, sts_in in Hr. rewrite E in Hr. destruct Hr.
  - rewrite (sts_remove1_same _ _ _ _ _ Hr E). reflexivity.
Qed.

Lemma nodup_app_l {A} (a b : list A) : NoDup (a ++ b) -> NoDup a.
Proof.
  induction a as [|x r IH]; cbn; intros H; [constructor|]. inversion H as [|y z Hy Hz]; subst.
  constructor; [intros Hin; apply Hy; apply in_or_app; left; exact Hin|apply IH; exact Hz].
Qed.

Lemma nodup_fst_app_l (a b : list (Z * est)) : NoDup (map fst (a ++ b)) -> NoDup (map fst a).
Proof. rewrite map_app. apply nodup_app_l. Qed.

Definition twv (v : rpc * list est * list est * list est) (st : est) : nat :=
  let '(r, e, q, p) := v in
  tw5 r (match e with [] => false | _ => true end) (match p with [] => false | _ => true end) (match q with [] => false | _ => true end) st.

Lemma tw_view s x : tw s x = twv (view s x) (store s x).
Proof. unfold tw, view, twv. rewrite !has_sts. reflexivity. Qed.

Global Arguments has _ _ : simpl never.

Section Live.
  Variable tasks : list Z.
  Variable deps : Z -> list Z.
  Variable validate : bool.
  Variable rank : Z -> nat.
  Hypothesis Hnd : NoDup tasks.
  Hypothesis Hrank : forall t d, In d (deps t) -> (rank d < rank t)%nat.
  Hypothesis Hclosed : forall t d, In t tasks -> In d (deps t) -> In d tasks.

  Notation stepq := (step tasks deps validate true true).
  Notation InvQ := (InvQ tasks deps).

  Definition measure (s : eng) : nat := (pw (ph s) + sumw (tw s) tasks)%nat.

  Lemma hop_weight st P P' st' kn : hop st P P' st' -> fit P st kn -> exec kn = true ->
    (twv (spread P') st' < twv (spread P) st)%nat.
  Proof.
    intros H F X. apply Nat.ltb_lt. revert F X.
    destruct H as [sn|sn|k r w r' Htr|ev|sn v Hv].
    - intros (-> & ->) X. destruct st; try discriminate X; reflexivity.
    - intros (-> & ->) X. destruct st; try discriminate X; reflexivity.
    - intros _ _. generalize (wr st w). destruct Htr as [sn [-> | ->]| | | | | | | |sn [-> | ->]|]; reflexivity.
    - intros (-> & _) _. destruct ev; reflexivity.
    - intros (-> & ->) X. destruct Hv; subst v; destruct st; try discriminate X; reflexivity.
  Qed.

  Lemma moves_measure s s' t P P' : InvQ s -> moves s s' t P P' -> (measure s' < measure s)%nat.
  Proof.
    intros HI [Hf Ht Hrest Hctl Hhop]. injection Hctl as _ _ Ep _ _ _. unfold measure. rewrite Ep.
    destruct (task_tok tasks deps s t P HI Hf (proj1 (hop_tok _ _ _ _ Hhop))) as (F & Hin & _ & _ & X & _).
    pose proof (hop_weight _ _ _ _ _ Hhop F X) as Hlt.
    assert (sumw (tw s') tasks < sumw (tw s) tasks)%nat; [|lia].
    apply (sumw_lt _ _ _ t); [|exact Hin|rewrite !tw_view, Hf, Ht; exact Hlt].
    intros x _. destruct (Z.eq_dec x t) as [->|Hne]; [rewrite !tw_view, Hf, Ht; lia|].
    destruct (Hrest x Hne) as (A & B). rewrite !tw_view, A, B. lia.
  Qed.

  Lemma tw5_pushq_le st e : exec st = true -> (tw5 RNone e false true st <= tw5 RNone e false false st)%nat.
  Proof. destruct st, e; cbn; try discriminate; lia. Qed.

  Lemma ctl_measure s i p a c : (pw p < pw (ph s))%nat -> (measure (ctl s i p a c) < measure s)%nat.
  Proof. intros H. unfold measure. cbn. change (tw (ctl s i p a c)) with (tw s). lia. Qed.

  Lemma rebuild_measure s :
    InvQ s -> ph s = PInit \/ (ph s = PDown /\ ins s = IRunning) ->
    (measure (set_ph (set_pushq (set_tree (set_know s (store s)) true) (pushq s ++ snap (store s) (filter (pushable deps (store s)) tasks))) PIdle)
     < measure s)%nat.
  Proof.
    intros HI Hph. destruct (rebuild_idle tasks deps s HI Hph) as (Qe & Qq & Qp & Qr).
    assert (Hpw : (pw PIdle < pw (ph s))%nat) by (destruct Hph as [-> |(-> & _)]; cbn; lia).
    unfold measure. cbn [ph set_ph]. set (s' := set_ph _ _).
    assert (Hle : (sumw (tw s') tasks <= sumw (tw s) tasks)%nat); [|lia].
    apply sumw_le. intros x Hx. rewrite !tw_view. unfold view, s'. cbn. rewrite Qr, Qe, Qp, Qq. cbn [app]. change (sts x []) with (@nil est).
    rewrite (sts_snap _ _ x (NoDup_filter _ Hnd)). destruct (in_dec Z.eq_dec x _) as [Hy|_]; [|cbn; lia].
    apply tw5_pushq_le. apply filter_In in Hy. destruct Hy as (_ & Hp). apply andb_true_iff in Hp. apply Hp.
  Qed.

  (** the parser worker handles the head event: its token goes, or goes back to the pusher as init; what is pushed besides held no token *)
  Lemma deliver_measure s s' t0 st r :
    InvQ s -> evq s = (t0, st) :: r -> store s' = store s -> ph s' = ph s ->
    (forall x, view s' x = if in_dec Z.eq_dec x (next tasks deps s t0 st) then spread (Pushing (store s x))
                           else view (set_know (set_evq s r) (upd (know s) t0 st)) x) ->
    (measure s' < measure s)%nat.
  Proof.
    intros HI Heq Hst Hph Hv.
    destruct (deliver_head tasks deps s t0 st r HI Heq) as ((H0st & H0ev) & H0in & _).
    assert (Hx : forall x, (tw s' x <= tw s x)%nat /\ (x = t0 -> tw s' x < tw s x)%nat).
    { intros x. rewrite !tw_view, Hv, Hst. destruct (in_dec Z.eq_dec x _) as [Hn|Hn].
      - destruct (deliver_next_spec tasks deps rank Hrank s t0 st r HI Heq x Hn) as (_ & _ & C & D & E).
        rewrite (deliver_taken tasks deps s t0 st r HI Heq) in E. destruct (Z.eq_dec x t0) as [->|Hne].
        + rewrite (deliver_tok tasks deps s t0 st r HI Heq), H0st. rewrite upd_same in C.
          destruct H0ev as [-> |[-> |[-> |[-> | ->]]]]; try discriminate C. cbn. lia.
        + rewrite E. rewrite upd_other in C, D by exact Hne. rewrite D in C. split; [exact (tw5_pushq_le _ false C)|congruence].
      - rewrite (deliver_taken tasks deps s t0 st r HI Heq). destruct (Z.eq_dec x t0) as [->|Hne]; [|split; [lia|congruence]].
        rewrite (deliver_tok tasks deps s t0 st r HI Heq), H0st. destruct H0ev as [-> |[-> |[-> |[-> | ->]]]]; cbn; lia. }
    unfold measure. rewrite Hph. assert (sumw (tw s') tasks < sumw (tw s) tasks)%nat; [|lia].
    apply (sumw_lt _ _ _ t0); [intros x _; apply Hx|exact H0in|apply Hx; reflexivity].
  Qed.

  Theorem engine_step_decreases s l s' :
    InvQ s -> stepq s l = Some s' -> operator l = false -> (measure s' < measure s)%nat.
  Proof.
    intros HI HS Hop.
    destruct (step_Step _ _ _ _ _ _ _ _ HS) as [l i p a c Hc | k t w r' Htr | t sn p' Hr _ | t sn p' Hr Hg | t ev Hr | t sn q' Hr
      | k v g t sn q' Hpv Hr Hg _ | k v v' t Harm _ _ _ | pb Hg _ | | | pb t st r Heq Hl | pb t st r q' Heq _ _ _ Hq
      | pb t st r v Heq _ _ HN _ _]; clear HS; try discriminate Hop.
    - destruct Hc as [| | | | Hp _ | pb v [Hp|(Hp & _)] _ _]; try discriminate Hop; apply ctl_measure; rewrite Hp; cbn; lia.
    - exact (moves_measure s _ t _ _ HI (moved_moves tasks deps s k t w r' HI Htr)).
    - exact (moves_measure s _ t _ _ HI (accept_moves tasks deps s t sn p' HI Hr)).
    - rewrite (invq_guard_ok tasks deps validate s t sn HI (remove1_mem _ _ _ Hr)) in Hg. discriminate.
    - exact (moves_measure s _ t _ _ HI (finish_moves tasks deps s t ev HI Hr)).
    - exact (moves_measure s _ t _ _ HI (pushrun_moves tasks deps s t sn q' HI Hr)).
    - exact (moves_measure s _ t _ _ HI (verdict_moves tasks deps s t sn v q' HI Hr (proj1 (pv_tr_spec _ _ _ sn Hpv Hg)))).
    - destruct Harm; discriminate Hop.
    - exact (rebuild_measure s HI Hg).
    - destruct (deliver_head tasks deps s t st r HI Heq) as (_ & _ & Htree & Hpd & _). rewrite Htree, Hpd in Hl. discriminate.
    - subst q'. apply (deliver_measure s _ t st r HI Heq); try reflexivity. exact (deliver_pushed tasks deps rank Hnd Hrank s t st r HI Heq).
    - apply (deliver_measure s _ t st r HI Heq); try reflexivity. rewrite HN. reflexivity.
  Qed.

  Theorem engine_steps_bounded ls : forall s s',
    InvQ s -> run tasks deps validate true true s ls = Some s' -> forallb (fun l => negb (operator l)) ls = true ->
    (length ls + measure s' <= measure s)%nat.
  Proof.
    apply (run_bounded stepq InvQ); [exact (invq_step tasks deps validate rank Hnd Hrank Hclosed)|].
    intros s l s' HI E Hop. apply (engine_step_decreases s l s' HI E). apply negb_true_iff. exact Hop.
  Qed.

  Theorem rest_is_quiet s :
    InvQ s -> (forall l s', stepq s l = Some s' -> operator l = true) ->
    quiet tasks s = true /\ ph s <> PInit /\ ph s <> PDown.
  Proof.
    intros HI Hrest.
    assert (H : ~ (quiet tasks s = false \/ ph s = PInit \/ ph s = PDown)).
    { intros H. destruct (engine_not_stuck tasks deps validate s HI H) as (l & s' & Hop & Hs). rewrite (Hrest l s' Hs) in Hop. discriminate. }
    repeat split.
    - destruct (quiet tasks s) eqn:E; [reflexivity|]. exfalso. apply H. left. reflexivity.
    - intros E. apply H. right. left. exact E.
    - intros E. apply H. right. right. exact E.
  Qed.

  (** C03 as a liveness statement about the restricted system: the engine's own steps are finitely many
      ([engine_steps_bounded]), and where they end - with no command stored and no task left recorded running -
      the instance is settled and the verdict agrees with its tasks *)
  Theorem rest_is_settled s :
    InvQ s -> (forall l s', stepq s l = Some s' -> operator l = true) -> cmd s = false ->
    (forall t, In t tasks -> store s t <> SRunning) ->
    ins s <> IRunning /\
    (ins s = ISuccess <-> forall t, In t tasks -> done (store s t) = true) /\
    (ins s = IFailed -> exists t, In t tasks /\ store s t = SFailed) /\
    (ins s = IBlocked -> exists t, In t tasks /\ store s t = SBlocked).
  Proof.
    intros HI Hrest Hc Hnr. destruct (rest_is_quiet s HI Hrest) as (Hq & Hp1 & Hp2).
    apply (settled tasks deps s HI). repeat split; try assumption.
    destruct (ph s) eqn:Ep; try congruence. pose proof (g3 _ _ s HI Ep). congruence.
  Qed.

  (** With commands at quiescent points the code as it is needs no hypothesis about deliveries ([validate] arbitrary):
      every delivery under way and every snapshot in a pusher's hands is current ([InvQ]), so a step of the code as it
      is is a step of the validated system, and what EngineFacts proves of its histories (C02 / C04 among it) holds of
      these: [Inv] is an invariant of them too. *)
  Lemma invq_push_ok v s t sn : InvQ s -> In (t, sn) (pushq s) -> push_ok v s t sn = true.
  Proof.
    intros HI Hin. destruct v; [|reflexivity]. pose proof (proj1 (proj2 (proj2 (tok_at tasks deps s t HI))) sn Hin) as Hv.
    destruct (task_tok tasks deps s t _ HI Hv) as ((A & _) & _); [discriminate|]. injection Hv as B _ _ D.
    unfold push_ok. fold (has (pend s) t). rewrite <- A, B, has_sts, D. cbn. rewrite !andb_true_r. apply est_eqb_eq. reflexivity.
  Qed.

  Lemma quiet_step_validated s l s' : InvQ s -> stepq s l = Some s' -> step tasks deps true true true s l = Some s'.
  Proof.
    intros HI. destruct l; try exact (fun H => H); cbn [step].
    - destruct (remove1 (t, s0) (pend s)) eqn:Er; [|discriminate].
      rewrite (invq_guard_ok tasks deps validate s t s0 HI (remove1_mem _ _ _ Er)), (invq_guard_ok tasks deps true s t s0 HI (remove1_mem _ _ _ Er)).
      exact (fun H => H).
    - destruct (remove1 (t, s0) (pend s)) eqn:Er; [|discriminate].
      rewrite (invq_guard_ok tasks deps validate s t s0 HI (remove1_mem _ _ _ Er)). discriminate.
    - destruct (remove1 (t, s0) (pushq s)) eqn:Er; [|discriminate].
      rewrite (invq_push_ok validate s t s0 HI (remove1_mem _ _ _ Er)), (invq_push_ok true s t s0 HI (remove1_mem _ _ _ Er)). exact (fun H => H).
    - destruct (remove1 (t, s0) (pushq s)) eqn:Er; [|discriminate].
      rewrite (invq_push_ok validate s t s0 HI (remove1_mem _ _ _ Er)), (invq_push_ok true s t s0 HI (remove1_mem _ _ _ Er)). exact (fun H => H).
  Qed.

  Theorem quiet_inv_history ls s : run tasks deps validate true true boot ls = Some s -> Inv deps s.
  Proof.
    intros HR. refine (proj2 (run_inv stepq (fun s => InvQ s /\ Inv deps s) _ ls boot s (conj (invq_boot tasks deps) (inv_boot deps)) HR)).
    intros a l b (HI & HV) E. split; [exact (invq_step tasks deps validate rank Hnd Hrank Hclosed a l b HI E)|].
    exact (inv_step tasks deps true true a l b HV (quiet_step_validated a l b HI E)).
  Qed.

  (** Of a single state, from [InvQ] alone: C01 - a main action starts only when every dependency is recorded
      finished; C15/C13 - a finished task (success or skipped) is never given another status *)
  Theorem quiet_main_start_parents_done s t s' : InvQ s -> stepq s (MainStart t) = Some s' -> parents_done deps (store s) t = true.
  Proof.
    intros HI HS. cbn in HS. destruct (runs s t) eqn:Er; try discriminate.
    apply (inflight_pdone_store tasks deps s t HI). left. congruence.
  Qed.

  Theorem quiet_done_final s l s' t : InvQ s -> stepq s l = Some s' -> done (store s t) = true -> store s' t = store s t.
  Proof.
    intros HI HS Hst.
    destruct (step_store _ _ _ _ _ s l s' t HS) as [E|[Hw|[(sn & Hin & _)|[(_ & [E|E])|(E & _)]]]]; try exact E; exfalso;
      try (rewrite E in Hst; discriminate).
    - pose proof (writing_active _ _ Hw (proj1 (q5_fits tasks deps s t HI))) as A. destruct (store s t); discriminate.
    - assert (Hin' : In (t, sn) (dl s)) by (unfold dl; apply in_or_app; left; exact Hin).
      destruct (q1 _ _ s HI t sn Hin') as (A & B & _). subst sn. destruct (store s t); cbn in B, Hst; congruence.
  Qed.
End Live.
