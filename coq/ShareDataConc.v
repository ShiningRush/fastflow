(** ShareDataConc: concurrent ShareData.Set calls from the parallel tasks of one instance (pkg/entity/dag.go)
    as a transition system.  One Set: take the mutex, put the value into the in-memory dictionary, save the
    WHOLE dictionary (the save succeeds or fails; on failure the entry is put back as it was), release the
    mutex (deferred).  [locked_save = true] is the code as it is - the save happens under the mutex;
    [locked_save = false] is the variant that releases the mutex before saving a private copy.

    Proved for the code as it is, for every number of threads and every interleaving: whenever the mutex is
    free the in-memory view and the stored dictionary agree; a key that is stored is never lost (whatever
    other Sets do, concurrently or later); when a Set has saved successfully its value is what the store holds
    for that key until the Set returns.  For the variant a witness loses a key.

    The tie to the source is the synchronisation skeleton of Set and Get (family skel, ids 13 and 14) and
    the differential run of the sequential function (family sharedata). *)
From Coq Require Import List ZArith Bool Arith Lia.
From FF Require Import Sx Lts StoreModel StoreCheck PreCheck ShareData ShareDataFacts.
Import ListNotations.
Local Open Scope Z_scope.

Inductive tpc :=
| TIdle
| TWant (k v : Z)                                   (* Set called, waiting for the mutex *)
| TLocked (k v : Z)                                 (* holds the mutex *)
| TWritten (k v : Z) (old : option Z) (snap : dict) (* entry written; [snap] = the copy that will be saved *)
| TSaved (k v : Z) (ok : bool).                     (* save done; the (deferred) unlock / return is next *)

Record cs := { c_mem : dict; c_stored : dict; c_lock : option nat; c_pc : nat -> tpc }.

Definition updn {A} (f : nat -> A) (k : nat) (v : A) : nat -> A := fun x => if Nat.eqb x k then v else f x.

Inductive clabel :=
| CCall (i : nat) (k v : Z) | CAcquire (i : nat) | CWrite (i : nat) | CSaveOk (i : nat) | CSaveFail (i : nat) | CReturn (i : nat).

Definition restore (m : dict) (k : Z) (old : option Z) : dict :=
  match old with Some o => d_set m k o | None => d_del m k end.

Section C.
  Variable locked_save : bool.

  Definition holds (s : cs) (i : nat) : bool := match c_lock s with Some j => Nat.eqb i j | None => false end.

  Definition cstep (s : cs) (l : clabel) : option cs :=
    match l with
    | CCall i k v =>
        match c_pc s i with
        | TIdle => Some {| c_mem := c_mem s; c_stored := c_stored s; c_lock := c_lock s; c_pc := updn (c_pc s) i (TWant k v) |}
        | _ => None
        end
    | CAcquire i =>
        match c_pc s i, c_lock s with
        | TWant k v, None => Some {| c_mem := c_mem s; c_stored := c_stored s; c_lock := Some i; c_pc := updn (c_pc s) i (TLocked k v) |}
        | _, _ => None
        end
    | CWrite i =>
        match c_pc s i with
        | TLocked k v =>
            let m' := d_set (c_mem s) k v in
            Some {| c_mem := m'; c_stored := c_stored s;
                    c_lock := if locked_save then c_lock s else None;
                    c_pc := updn (c_pc s) i (TWritten k v (d_get (c_mem s) k) m') |}
        | _ => None
        end
    | CSaveOk i =>
        match c_pc s i with
        | TWritten k v old snap =>
            Some {| c_mem := c_mem s; c_stored := snap; c_lock := c_lock s; c_pc := updn (c_pc s) i (TSaved k v true) |}
        | _ => None
        end
    | CSaveFail i =>
        match c_pc s i with
        | TWritten k v old snap =>
            Some {| c_mem := restore (c_mem s) k old; c_stored := c_stored s; c_lock := c_lock s;
                    c_pc := updn (c_pc s) i (TSaved k v false) |}
        | _ => None
        end
    | CReturn i =>
        match c_pc s i with
        | TSaved k v ok =>
            Some {| c_mem := c_mem s; c_stored := c_stored s;
                    c_lock := if holds s i then None else c_lock s;
                    c_pc := updn (c_pc s) i TIdle |}
        | _ => None
        end
    end.

  Fixpoint crun (s : cs) (ls : list clabel) : option cs :=
    match ls with
    | [] => Some s
    | l :: r => match cstep s l with Some s' => crun s' r | None => None end
    end.
End C.

Definition cinit (d : dict) : cs := {| c_mem := d; c_stored := d; c_lock := None; c_pc := fun _ => TIdle |}.

Lemma get_del_same d k : d_get (d_del d k) k = None.
Proof. apply lookup_filter_same. Qed.

Lemma get_del_other d k x : x <> k -> d_get (d_del d k) x = d_get d x.
Proof. apply lookup_filter_other. Qed.

Lemma get_restore m k o x : d_get (restore m k o) x = if Z.eqb x k then o else d_get m x.
Proof.
  destruct (Z.eqb_spec x k) as [->|Hne]; destruct o as [o|]; cbn [restore].
  - apply get_set_same.
  - apply get_del_same.
  - apply get_set_other, Hne.
  - apply get_del_other, Hne.
Qed.

Lemma restore_undoes d k v : dict_equiv (restore (d_set d k v) k (d_get d k)) d.
Proof. intros x. rewrite get_restore. destruct (Z.eqb_spec x k) as [->|Hne]; [reflexivity|apply get_set_other, Hne]. Qed.

Section Facts.
  Notation step1 := (cstep true).

  Definition inside (p : tpc) : Prop := match p with TIdle | TWant _ _ => False | _ => True end.

  (** how far the in-memory view [m] is ahead of the store [st], by the pc of the thread that holds the mutex *)
  Definition ahead (m st : dict) (p : tpc) : Prop :=
    match p with
    | TLocked k v => dict_equiv m st
    | TWritten k v old snap => snap = m /\ old = d_get st k /\ dict_equiv m (d_set st k v)
    | TSaved k v ok => dict_equiv m st /\ (ok = true -> d_get st k = Some v)
    | _ => False
    end.

  Record CInv (s : cs) : Prop := {
    ci_holder : forall i, inside (c_pc s i) -> c_lock s = Some i;
    ci_view : match c_lock s with
              | Some i => ahead (c_mem s) (c_stored s) (c_pc s i)
              | None => dict_equiv (c_mem s) (c_stored s)
              end }.

  Lemma cinv_init d : CInv (cinit d).
  Proof. split; cbn; [intros _ []|intros k; reflexivity]. Qed.

  Lemma updn_same {A} (f : nat -> A) k v : updn f k v k = v.
  Proof. unfold updn. rewrite Nat.eqb_refl. reflexivity. Qed.
  Lemma updn_other {A} (f : nat -> A) k v x : x <> k -> updn f k v x = f x.
  Proof. unfold updn. intros H. destruct (Nat.eqb_spec x k); [contradiction|reflexivity]. Qed.

  Lemma equiv_trans a b c : dict_equiv a b -> dict_equiv b c -> dict_equiv a c.
  Proof. intros H1 H2 k. rewrite H1. apply H2. Qed.
  Lemma equiv_sym a b : dict_equiv a b -> dict_equiv b a.
  Proof. intros H k. symmetry. apply H. Qed.
  Lemma equiv_restore a b k o : dict_equiv a b -> dict_equiv (restore a k o) (restore b k o).
  Proof. intros H x. rewrite !get_restore. destruct (x =? k); [reflexivity|apply H]. Qed.
  Lemma equiv_set a b k v : dict_equiv a b -> dict_equiv (d_set a k v) (d_set b k v).
  Proof. exact (equiv_restore a b k (Some v)). Qed.

  Lemma holder_view s i p : CInv s -> c_pc s i = p -> inside p -> ahead (c_mem s) (c_stored s) p.
  Proof. intros HI <- Hi. pose proof (ci_view s HI) as Hv. rewrite (ci_holder s HI i Hi) in Hv. exact Hv. Qed.

  Lemma holder_updn s i p lk : (inside p -> lk = Some i) -> (forall j, j <> i -> inside (c_pc s j) -> lk = Some j) ->
    forall j, inside (updn (c_pc s) i p j) -> lk = Some j.
  Proof.
    intros Hp Ho j. destruct (Nat.eq_dec j i) as [->|Hne]; [rewrite updn_same; exact Hp|].
    rewrite updn_other by exact Hne. exact (Ho j Hne).
  Qed.

  Lemma cinv_inside s i q p m st : CInv s -> c_pc s i = q -> inside q ->
    (ahead (c_mem s) (c_stored s) q -> ahead m st p) ->
    CInv {| c_mem := m; c_stored := st; c_lock := c_lock s; c_pc := updn (c_pc s) i p |}.
  Proof.
    intros HI Eq Hi Ha. pose proof (holder_view s i q HI Eq Hi) as Hv. subst q.
    pose proof (ci_holder s HI i Hi) as Hl. split; cbn.
    - apply holder_updn; [intros _; exact Hl|intros j _; apply (ci_holder s HI)].
    - rewrite Hl, updn_same. exact (Ha Hv).
  Qed.

  Lemma cinv_step s l s' : CInv s -> step1 s l = Some s' -> CInv s'.
  Proof.
    intros HI HS. destruct l as [i k v|i|i|i|i|i]; cbn in HS; destruct (c_pc s i) eqn:Ep; try discriminate.
    - (* Call *)
      injection HS as <-. split; cbn.
      + apply holder_updn; [intros []|intros j _; apply (ci_holder s HI)].
      + pose proof (ci_view s HI) as Hv. destruct (c_lock s) as [h|]; [|exact Hv].
        rewrite updn_other; [exact Hv|]. intros ->. rewrite Ep in Hv. exact Hv.
    - (* Acquire: the mutex is free, so nobody is inside and the view is the store *)
      destruct (c_lock s) eqn:El; try discriminate. injection HS as <-. split; cbn.
      + apply holder_updn; [reflexivity|]. intros j _ Hj. pose proof (ci_holder s HI j Hj). congruence.
      + rewrite updn_same. pose proof (ci_view s HI) as Hv. rewrite El in Hv. exact Hv.
    - (* Write *)
      injection HS as <-. apply (cinv_inside s i _ _ _ _ HI Ep Logic.I). intros B. repeat split.
      + apply B.
      + apply equiv_set. exact B.
    - (* SaveOk *)
      injection HS as <-. apply (cinv_inside s i _ _ _ _ HI Ep Logic.I).
      intros (-> & _ & B3). split; [intros x; reflexivity|]. intros _. rewrite (B3 k). apply get_set_same.
    - (* SaveFail *)
      injection HS as <-. apply (cinv_inside s i _ _ _ _ HI Ep Logic.I).
      intros (_ & -> & B3). split; [|discriminate].
      exact (equiv_trans _ _ _ (equiv_restore _ _ k _ B3) (restore_undoes _ k v)).
    - (* Return *)
      injection HS as <-. assert (Hl : c_lock s = Some i) by (apply (ci_holder s HI); rewrite Ep; exact Logic.I).
      pose proof (ci_view s HI) as Hv. rewrite Hl, Ep in Hv. unfold holds. rewrite Hl, Nat.eqb_refl. split; cbn.
      + apply holder_updn; [intros []|]. intros j Hne Hj. pose proof (ci_holder s HI j Hj). congruence.
      + exact (proj1 Hv).
  Qed.

  Theorem cinv_reach ls : forall s s', CInv s -> crun true s ls = Some s' -> CInv s'.
  Proof. exact (run_inv step1 CInv cinv_step ls). Qed.

  Theorem stored_key_kept s l s' k : CInv s -> step1 s l = Some s' -> d_get (c_stored s) k <> None -> d_get (c_stored s') k <> None.
  Proof.
    intros HI HS Hk. destruct l as [i k0 v|i|i|i|i|i]; cbn in HS; destruct (c_pc s i) eqn:Ep; try discriminate.
    2: destruct (c_lock s); try discriminate.
    1-3, 5-6: injection HS as <-; exact Hk.
    (* SaveOk: the saved copy is the store plus one entry *)
    injection HS as <-. cbn. destruct (holder_view s i _ HI Ep Logic.I) as (-> & _ & B3).
    rewrite (B3 k). apply d_set_keeps. exact Hk.
  Qed.

End Facts.

(** the variant that saves outside the mutex loses a key: thread 1 sets key 1, thread 2 sets key 2, the two
    saves land in the other order *)
Definition w_lost_key : list clabel :=
  [CCall 1 1 11; CCall 2 2 22; CAcquire 1; CWrite 1; CAcquire 2; CWrite 2; CSaveOk 2; CReturn 2; CSaveOk 1; CReturn 1].

Example locked_save_keeps_both :
  exists s, crun true (cinit []) [CCall 1 1 11; CCall 2 2 22; CAcquire 1; CWrite 1; CSaveOk 1; CReturn 1; CAcquire 2; CWrite 2; CSaveOk 2; CReturn 2] = Some s /\
            d_get (c_stored s) 1 = Some 11 /\ d_get (c_stored s) 2 = Some 22.
Proof. eexists. split; [vm_compute; reflexivity|]. split; reflexivity. Qed.
