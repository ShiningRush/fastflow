(** ExecRegLive: the steps the executor takes by itself (init goroutine, hand-over, status check) strictly decrease
    a measure, so from every state the executor comes to rest after finitely many of them - and at rest it waits
    only behind running actions (ExecRegFacts.executor_waits_only_for_runs). *)
From Coq Require Import List ZArith Bool Arith Lia.
Import ListNotations.
From FF Require Import Lts Engine ExecReg ExecRegFacts.

Definition is_internal (l : xl) : bool :=
  match l with XInitTake | XHand | XCheck _ => true | _ => false end.

Definition wweight (p : dl * wph) : nat := match snd p with WTaken => 1 | WRun => 0 end.
Fixpoint sumw (l : list (dl * wph)) : nat := match l with [] => 0 | p :: r => wweight p + sumw r end.

(** a delivery weighs the internal steps it has left: 3 in the init queue, 2 in the init goroutine's hand, 1 taken
    by a worker, 0 once its run has started *)
Definition xmeasure (s : xs) : nat :=
  3 * length (initq s) + (match held s with Some _ => 2 | None => 0 end) + sumw (work s).

Lemma sumw_app a b : sumw (a ++ b) = sumw a + sumw b.
Proof. induction a as [|x a IH]; cbn; [reflexivity | rewrite IH; lia]. Qed.

Lemma takeout_sumw x l l' : takeout x l = Some l' -> sumw l = wweight x + sumw l'.
Proof. intros (l1 & l2 & -> & ->)%takeout_split. rewrite !sumw_app. cbn [sumw]. lia. Qed.

Theorem own_step_decreases nworkers leak s l s' :
  is_internal l = true -> xstep nworkers leak s l = Some s' -> xmeasure s' < xmeasure s.
Proof.
  intros I H. destruct l as [t o| | |d|d v|d|o v]; try discriminate I; cbn [xstep] in H.
  - destruct (held s) eqn:Hh; [discriminate|]. destruct (initq s) as [|d r] eqn:Hq; [discriminate|].
    destruct (reg s (dt d)); inversion H; subst; unfold xmeasure; cbn; rewrite ?Hh, ?Hq; cbn; lia.
  - destruct (held s) as [d|] eqn:Hh; [|discriminate].
    destruct (Nat.ltb (length (work s)) nworkers); [|discriminate]. inversion H; subst.
    unfold xmeasure; cbn. rewrite Hh, sumw_app. cbn. lia.
  - destruct (takeout (d, WTaken) (work s)) as [w'|] eqn:T; [|discriminate].
    pose proof (takeout_sumw _ _ _ T) as E. cbn in E.
    destruct (exec (objs s (dob d))); inversion H; subst; unfold xmeasure; cbn [initq held work set_work set_reg]; rewrite ?sumw_app; cbn [sumw wweight snd]; lia.
Qed.

Lemma push_measure nworkers leak s t o s' :
  xstep nworkers leak s (XPush t o) = Some s' -> xmeasure s' = xmeasure s + 3.
Proof. cbn. intros H. inversion H; subst. unfold xmeasure; cbn. rewrite app_length. cbn. lia. Qed.
