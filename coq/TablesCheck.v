(** TablesCheck: the status predicates of the Engine model against the status tables of the source.  The harness
    family [tables] reads, from the current source text, the task-status constants each of these functions
    mentions (grouped by switch case / closure); this file holds the table each model predicate is PROVED to be
    the characteristic function of, and compares.  A change of one of these sets in the source (e.g. a status
    added to Executable, removed from IsLastState) breaks this correspondence before any run shows it.

    codes as stored: 1 init 2 running 3 ending 4 success 5 failed 6 canceled 7 retrying 8 blocked 9 continue
    10 skipped (canceled is not a status of the Engine model: cancel is outside it). *)
From Coq Require Import List ZArith Bool.
From FF Require Import Sx StoreModel Engine.
Import ListNotations.
Local Open Scope Z_scope.

Definition code (s : est) : Z :=
  match s with SInit => 1 | SRunning => 2 | SEnding => 3 | SSuccess => 4 | SFailed => 5 | SRetrying => 7
             | SBlocked => 8 | SContinue => 9 | SSkipped => 10 end.

Definition table_expected (f : Z) : option (list (Z * Z)) :=
  match f with
  | 1 => Some [(0, 1); (0, 7); (0, 9); (0, 3)]                                  (* TaskNode.Executable *)
  | 2 => Some [(0, 4); (0, 10)]                                                 (* TaskNode.CanExecuteChild *)
  | 3 => Some [(2, 5); (2, 6); (3, 8); (4, 4); (4, 10)]                         (* TaskNode.ComputeStatus: failed | blocked | finished; default = running *)
  | 4 => Some [(1, 5); (1, 6); (1, 4); (1, 10)]                                 (* TaskInstance.IsLastState *)
  | 5 => Some [(0, 9)]                                                          (* TaskInstance.CanBlock: false exactly for continue *)
  | 6 => Some [(1, 1); (1, 3); (1, 7); (1, 9)]                                  (* DefExecutor.workerDo: runs a delivery in these statuses only *)
  | 7 => Some [(1, 5); (1, 6); (2, 5); (2, 6); (2, 7); (4, 8); (5, 8); (5, 9)]  (* DefParser.parseCmd: retry lists failed/canceled -> retrying; continue lists blocked -> continue *)
  | _ => None
  end.

Definition col (f : Z) (g : Z) : list Z :=
  match table_expected f with Some l => map snd (filter (fun p => Z.eqb (fst p) g) l) | None => [] end.

Lemma exec_is_table s : exec s = zin (code s) (col 1 0).
Proof. destruct s; reflexivity. Qed.
Lemma exec_is_worker_gate s : exec s = zin (code s) (col 6 1).
Proof. destruct s; reflexivity. Qed.
Lemma done_is_table s : done s = zin (code s) (col 2 0).
Proof. destruct s; reflexivity. Qed.
Lemma active_is_table s : active s = negb (zin (code s) (col 3 2 ++ col 3 3 ++ col 3 4)).
Proof. destruct s; reflexivity. Qed.
Lemma can_block_is_table s : can_block s = exec s && negb (Z.eqb (code s) 3) && negb (zin (code s) (col 5 0)).
Proof. destruct s; reflexivity. Qed.
Lemma can_skip_is_table s : can_skip s = exec s && negb (Z.eqb (code s) 3) && negb (zin (code s) (col 4 1)).
Proof. destruct s; reflexivity. Qed.
Lemma rearm_table : zin (code SFailed) (col 7 1) = true /\ zin (code SRetrying) (col 7 2) = true /\
                    col 7 4 = [code SBlocked] /\ zin (code SContinue) (col 7 5) = true.
Proof. repeat split. Qed.

Definition pair_of_sx (s : sx) : option (Z * Z) :=
  match s with L [I a; I b] => Some (a, b) | _ => None end.
Definition pair_eqb (a b : Z * Z) : bool := Z.eqb (fst a) (fst b) && Z.eqb (snd a) (snd b).

(** case = (function-id ((group status) ...)) *)
Definition check_tables (c : sx) : verdict :=
  match c with
  | L [I f; L ops] =>
      match opt_map pair_of_sx ops, table_expected f with
      | Some got, Some want =>
          if list_eqb pair_eqb got want then OkCase
          else Mismatch f (L (map (fun p => L [I (fst p); I (snd p)]) want))
      | _, _ => BadCase 2
      end
  | _ => BadCase 1
  end.
Definition monitor_tables (c : sx) : option bool :=
  match check_tables c with OkCase => Some true | Mismatch _ _ => Some false | BadCase _ => None end.
