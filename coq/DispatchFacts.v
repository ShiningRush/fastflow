(** C07: what a round writes is a round-robin hand-out ([written_round]), whose shares differ by at most one
    ([handed_balanced]); so the model's round passes the monitor the implementation is judged by. *)
From Coq Require Import List ZArith Bool Arith Lia.
From FF Require Import Sx Dispatch.
Import ListNotations.

Lemma no_init_assign limit c alive l :
  has_init l = false -> assign limit c alive l = l.
Proof.
  revert c; induction l as [|x t IH]; intros c H; simpl in *; [reflexivity|].
  apply orb_false_iff in H as [H1 H2]. rewrite H1. f_equal. apply IH, H2.
Qed.

Definition rank (l : list ins) (i : nat) : nat := count_init (firstn i l).

Lemma assign_length limit c alive l : length (assign limit c alive l) = length l.
Proof. revert c; induction l as [|x t IH]; intros c; simpl; [reflexivity|].
  destruct (is_init (ist x)); simpl; rewrite IH; reflexivity. Qed.

Lemma assign_nth limit alive l : forall c i d, i < length l ->
  nth i (assign limit c alive l) d =
  let x := nth i l d in
  if is_init (ist x) && (c + rank l i <? limit)
  then mkIns (iid x) IScheduled (nth ((c + rank l i) mod length alive) alive 0%Z)
  else x.
Proof.
  induction l as [|x t IH]; intros c i d Hi; simpl in Hi; [lia|].
  destruct i as [|i].
  - simpl. unfold rank; simpl. rewrite Nat.add_0_r.
    destruct (is_init (ist x)) eqn:E; simpl; rewrite ?E; simpl; [|reflexivity].
    destruct (c <? limit); reflexivity.
  - cbn [assign]. unfold rank. cbn [firstn]. unfold count_init. cbn [filter].
    destruct (is_init (ist x)) eqn:E; cbn [nth length].
    + rewrite IH by lia. unfold rank, count_init. cbv zeta.
      replace (S c + length (filter (fun x0 => is_init (ist x0)) (firstn i t)))
        with (c + S (length (filter (fun x0 => is_init (ist x0)) (firstn i t)))) by lia.
      reflexivity.
    + rewrite IH by lia. reflexivity.
Qed.

Lemma assigned_worker_alive (alive : list Z) r :
  alive <> [] -> In (nth (r mod length alive) alive 0%Z) alive.
Proof.
  intros H. apply nth_In. apply Nat.mod_upper_bound. destruct alive; simpl; [congruence|lia].
Qed.

Lemma count_occ_handed_step n m alive w :
  count_occ Z.eq_dec (handed n (S m) alive) w =
  count_occ Z.eq_dec (handed n m alive) w +
  (if Z.eq_dec (nth (m mod n) alive 0%Z) w then 1 else 0).
Proof.
  unfold handed. rewrite seq_S, map_app, count_occ_app. simpl.
  destruct (Z.eq_dec _ w); lia.
Qed.

Lemma handed_counts alive : NoDup alive -> forall m,
  let n := length alive in
  0 < n ->
  exists q r, m = q * n + r /\ r < n /\
    forall j, j < n ->
      count_occ Z.eq_dec (handed n m alive) (nth j alive 0%Z) = q + (if j <? r then 1 else 0).
Proof.
  intros ND m n Hn. induction m as [|m IH].
  - exists 0, 0. split; [lia|]. split; [lia|]. intros j Hj. reflexivity.
  - destruct IH as (q & r & Hm & Hr & Hc).
    assert (Hmod : m mod n = r).
    { symmetry. apply (Nat.mod_unique m n q r); [assumption|lia]. }
    (* the next hand-out goes to the worker at [r]: now those at index <= r have q+1 *)
    assert (Hc' : forall j, j < n ->
      count_occ Z.eq_dec (handed n (S m) alive) (nth j alive 0%Z) = q + (if j <? S r then 1 else 0)).
    { intros j Hj. rewrite count_occ_handed_step, Hc, Hmod by assumption.
      destruct (Z.eq_dec (nth r alive 0%Z) (nth j alive 0%Z)) as [e|e].
      - apply NoDup_nth in e; try assumption. subst j.
        destruct (Nat.ltb_spec r r), (Nat.ltb_spec r (S r)); lia.
      - assert (j <> r) by congruence.
        destruct (Nat.ltb_spec j r), (Nat.ltb_spec j (S r)); lia. }
    destruct (Nat.eq_dec (S r) n) as [E|E].
    + exists (S q), 0. split; [lia|]. split; [lia|]. intros j Hj. rewrite (Hc' j Hj).
      destruct (Nat.ltb_spec j (S r)); [simpl; lia|lia].
    + exists q, (S r). split; [lia|]. split; [lia|]. exact Hc'.
Qed.

Theorem handed_balanced alive m w1 w2 :
  NoDup alive -> In w1 alive -> In w2 alive ->
  count_occ Z.eq_dec (handed (length alive) m alive) w1 <=
  S (count_occ Z.eq_dec (handed (length alive) m alive) w2).
Proof.
  intros ND H1 H2.
  assert (Hn : 0 < length alive) by (destruct alive; simpl in *; [contradiction|lia]).
  destruct (handed_counts alive ND m Hn) as (q & r & _ & _ & Hc).
  apply (In_nth _ _ 0%Z) in H1 as (j1 & Hj1 & <-).
  apply (In_nth _ _ 0%Z) in H2 as (j2 & Hj2 & <-).
  rewrite !Hc by assumption.
  destruct (j1 <? r), (j2 <? r); lia.
Qed.

Fixpoint written (limit c : nat) (alive : list Z) (l : list ins) : list Z :=
  match l with
  | [] => []
  | x :: t =>
      if is_init (ist x) then
        (if c <? limit then [nth (c mod length alive) alive 0%Z] else []) ++ written limit (S c) alive t
      else written limit c alive t
  end.

Lemma written_is_handed limit alive l : forall c,
  written limit c alive l =
  map (fun r => nth (r mod length alive) alive 0%Z) (seq c (Nat.min (limit - c) (count_init l))).
Proof.
  induction l as [|x t IH]; intros c; simpl.
  - rewrite Nat.min_0_r. reflexivity.
  - unfold count_init in *. simpl. destruct (is_init (ist x)) eqn:E; simpl.
    + rewrite IH. destruct (Nat.ltb_spec c limit).
      * replace (limit - c) with (S (limit - S c)) by lia. simpl. reflexivity.
      * replace (limit - c) with 0 by lia. replace (limit - S c) with 0 by lia. reflexivity.
    + apply IH.
Qed.

Theorem written_round limit alive l :
  written limit 0 alive l = handed (length alive) (Nat.min limit (count_init l)) alive.
Proof. rewrite written_is_handed, Nat.sub_0_r. reflexivity. Qed.

Lemma written_projection limit alive l : forall c,
  written limit c alive l = flat_map moved (combine l (assign limit c alive l)).
Proof.
  induction l as [|x t IH]; intros c; simpl; [reflexivity|]. unfold moved at 1. simpl.
  destruct (is_init (ist x)) eqn:E; simpl.
  - destruct (c <? limit); simpl; rewrite ?E; simpl; rewrite <- IH; reflexivity.
  - rewrite E. simpl. apply IH.
Qed.

Example dispatch_example :
  dispatch_round 1000
    [mkIns 1 IInit 0; mkIns 2 IRunning 7; mkIns 3 IInit 0; mkIns 4 IInit 0]%Z [7; 8]%Z
  = ([mkIns 1 IScheduled 7; mkIns 2 IRunning 7; mkIns 3 IScheduled 8; mkIns 4 IScheduled 7]%Z, DOk).
Proof. reflexivity. Qed.

Lemma ins_eqb_eq x y : ins_eqb x y = true <-> x = y.
Proof.
  destruct x as [i s w], y as [i' s' w']; unfold ins_eqb; simpl. split.
  - intros H. apply andb_true_iff in H as [H H3]. apply andb_true_iff in H as [H1 H2].
    apply Z.eqb_eq in H1, H3. apply istatus_eqb_eq in H2. congruence.
  - intros H; inversion H; subst. rewrite !Z.eqb_refl. destruct s'; reflexivity.
Qed.

Lemma ins_eqb_refl x : ins_eqb x x = true.
Proof. apply ins_eqb_eq. reflexivity. Qed.

Lemma list_ins_eqb_refl l : list_eqb ins_eqb l l = true.
Proof. apply (list_eqb_eq ins_eqb ins_eqb_eq). reflexivity. Qed.

Lemma pairs_ok limit alive l : alive <> [] -> forall c,
  forallb (pair_ok alive) (combine l (assign limit c alive l)) = true.
Proof.
  intros Ha. induction l as [|x t IH]; intros c; simpl; [reflexivity|].
  destruct (is_init (ist x)) eqn:E; simpl; rewrite E.
  - destruct (c <? limit); simpl.
    + rewrite Z.eqb_refl. simpl.
      assert (H : existsb (Z.eqb (nth (c mod length alive) alive 0%Z)) alive = true).
      { apply existsb_exists. exists (nth (c mod length alive) alive 0%Z). split.
        - apply assigned_worker_alive, Ha.
        - apply Z.eqb_refl. }
      rewrite H, orb_true_r. apply IH.
    + rewrite ins_eqb_refl. apply IH.
  - rewrite ins_eqb_refl. apply IH.
Qed.

Lemma balanced_handed alive m : NoDup alive ->
  balanced alive (handed (length alive) m alive) = true.
Proof.
  intros ND. unfold balanced. apply forallb_forall; intros w1 H1.
  apply forallb_forall; intros w2 H2. apply Nat.leb_le. apply handed_balanced; assumption.
Qed.

Theorem model_satisfies_monitor limit insts alive :
  NoDup alive ->
  let '(out, e) := dispatch_round limit insts alive in
  mon_dispatch limit insts alive (match e with DOk => 0 | DNoAlive => 1 end)%Z out = true.
Proof.
  intros ND. unfold dispatch_round, mon_dispatch.
  destruct (has_init insts) eqn:Hi; simpl.
  - destruct alive as [|a0 alive'] eqn:Ea.
    + simpl. apply list_ins_eqb_refl.
    + rewrite <- Ea in *. assert (Hne : alive <> []) by (rewrite Ea; discriminate).
      rewrite <- written_projection, assign_length, Nat.eqb_refl, pairs_ok by assumption.
      rewrite written_round. unfold handed at 1. rewrite map_length, seq_length, Nat.eqb_refl.
      rewrite balanced_handed by assumption. reflexivity.
  - apply list_ins_eqb_refl.
Qed.
