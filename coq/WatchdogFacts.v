(** C14: the watchdog sweeps select exactly the overdue records and change nothing else. *)
From Coq Require Import List ZArith Bool Arith Lia.
From FF Require Import Sx StoreModel StoreFacts.
Import ListNotations.
Local Open Scope Z_scope.

Theorem expired_selected_iff now s r :
  In r (expired_selected now s) <->
  In r (tasks s) /\ t_status r = 2 /\ t_upd r <= now - 5 - t_timeout r.
Proof.
  unfold expired_selected. rewrite list_tasks_exact. unfold task_matches, expired. simpl.
  rewrite !andb_true_r, orb_false_r, andb_true_iff, Z.eqb_eq, Z.leb_le. reflexivity.
Qed.

(** one step of the expired sweep *)
Lemma patch_ins_task_other now s iid share st cmd must_cmd wk rs must_rs tid st' rs' tr id :
  tid <> 0 -> tid <> id ->
  get_task (fst (patch_task now (fst (patch_ins now s iid share st cmd must_cmd wk rs must_rs)) tid st' rs' tr)) id
  = get_task s id.
Proof.
  intros Hnz Hne. set (s1 := fst (patch_ins now s iid share st cmd must_cmd wk rs must_rs)).
  destruct (patch_task_frame now s1 tid st' rs' tr Hnz) as (_ & Hother & _).
  rewrite Hother by congruence. unfold get_task, s1.
  rewrite (proj1 (patch_ins_frame now s iid share st cmd must_cmd wk rs must_rs)). reflexivity.
Qed.

Theorem left_behind_selected_iff now timeout s i :
  0 < now - timeout ->
  (In i (left_behind_selected now timeout s) <->
   In i (insts s) /\ i_status i = 2 /\ i_upd i <= now - timeout).
Proof.
  intros Hpos. unfold left_behind_selected. rewrite list_ins_exact_nolimit by (simpl; lia).
  unfold ins_matches. simpl. rewrite (proj2 (Z.ltb_lt _ _) Hpos). simpl.
  rewrite !andb_true_r, orb_false_r, andb_true_iff, Z.eqb_eq, Z.leb_le. reflexivity.
Qed.

Example expired_example :
  let s := mkS [mkI 9 1 3 0 None None 0 (L [])] [mkT 1 9 1 [] 30 2 0 [] 100 (L []); mkT 2 9 2 [] 30 2 0 [] 120 (L [])] in
  map (fun r => (t_id r, t_status r)) (tasks (expired_round 140 s)) = [(1, 5); (2, 2)]
  /\ map i_status (insts (expired_round 140 s)) = [5].
Proof. split; reflexivity. Qed.
